(* Operation parameters as a binary SSB reader / the compiler delivers them. *)
From ES Require Import Base.

Inductive param :=
| PInt (z : Z)
| PFixed (s : string)                 (* textual value of SsbOpParamFixedPoint *)
| PConst (s : string)                 (* SsbOpParamConstant name *)
| PStr (s : text)                     (* SsbOpParamConstString *)
| PLang (l : list (string * text))    (* SsbOpParamLanguageString, keys in order *)
| PPos (name : text) (xo yo xr yr : Z).

Definition lang_eqb : list (string * text) -> list (string * text) -> bool :=
  list_eqb (pair_eqb String.eqb text_eqb).

(* strict equality (names of position marks and key order of language strings included) *)
Definition param_eqb (a b : param) : bool :=
  match a, b with
  | PInt x, PInt y => Z.eqb x y
  | PFixed x, PFixed y => String.eqb x y
  | PConst x, PConst y => String.eqb x y
  | PStr x, PStr y => text_eqb x y
  | PLang x, PLang y => lang_eqb x y
  | PPos n xo yo xr yr, PPos n' xo' yo' xr' yr' =>
      text_eqb n n' && Z.eqb xo xo' && Z.eqb yo yo' && Z.eqb xr xr' && Z.eqb yr yr'
  | _, _ => false
  end.

Lemma lang_eqb_spec a b : lang_eqb a b = true <-> a = b.
Proof.
  apply list_eqb_spec. apply pair_eqb_spec; [apply String.eqb_eq | apply text_eqb_spec].
Qed.

Lemma param_eqb_spec a b : param_eqb a b = true <-> a = b.
Proof.
  split.
  - destruct a, b; cbn [param_eqb]; try discriminate; intro H.
    + apply Z.eqb_eq in H. congruence.
    + apply String.eqb_eq in H. congruence.
    + apply String.eqb_eq in H. congruence.
    + apply text_eqb_spec in H. congruence.
    + apply lang_eqb_spec in H. congruence.
    + apply andb_prop in H as [H Hyr]. apply andb_prop in H as [H Hxr].
      apply andb_prop in H as [H Hyo]. apply andb_prop in H as [Hn Hxo].
      apply text_eqb_spec in Hn. apply Z.eqb_eq in Hxo, Hyo, Hxr, Hyr. congruence.
  - intros <-. destruct a; cbn [param_eqb].
    + apply Z.eqb_refl.
    + apply String.eqb_refl.
    + apply String.eqb_refl.
    + now apply text_eqb_spec.
    + now apply lang_eqb_spec.
    + rewrite !Z.eqb_refl, (proj2 (text_eqb_spec name name) eq_refl). reflexivity.
Qed.

Definition params_eqb : list param -> list param -> bool := list_eqb param_eqb.
Lemma params_eqb_spec a b : params_eqb a b = true <-> a = b.
Proof. apply list_eqb_spec, param_eqb_spec. Qed.

(* Python's own __eq__ on position marks ignores the name; used only where a property grants it. *)
Definition param_eqb_py (a b : param) : bool :=
  match a, b with
  | PPos _ xo yo xr yr, PPos _ xo' yo' xr' yr' =>
      Z.eqb xo xo' && Z.eqb yo yo' && Z.eqb xr xr' && Z.eqb yr yr'
  | _, _ => param_eqb a b
  end.

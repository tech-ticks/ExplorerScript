(* Soundness of the bisimulation checker, and basic facts about behavioural equivalence. *)
From ES Require Import Base Ssb.Param Ssb.Cfg Ssb.Equiv.

Lemma pp_eqb_spec p q : pp_eqb p q = true <-> p = q.
Proof. apply (pair_eqb_spec Nat.eqb Nat.eqb Nat.eqb_eq Nat.eqb_eq). Qed.

Lemma pp_mem_In p l : pp_mem p l = true <-> In p l.
Proof. apply (existsb_eqb_In pp_eqb pp_eqb_spec). Qed.

(* a bisimulation *)
Definition closed_set (g1 g2 : cfg) (R : pp -> Prop) : Prop :=
  forall p, R p -> exists ss, succs (observe g1 (fst p)) (observe g2 (snd p)) = Some ss /\
                              forall q, In q ss -> R q.

Lemma closed_set_beh g1 g2 R :
  closed_set g1 g2 R -> forall k a b, R (a, b) -> beh_n k g1 g2 a b.
Proof.
  intros HC k. induction k as [|k IH]; intros a b HR; cbn [beh_n]; [exact I|].
  destruct (HC _ HR) as [ss [Hs Hin]]. cbn [fst snd] in Hs.
  destruct (observe g1 a) as [| | |e1 a'|e1 t1 f1]; try discriminate Hs;
    destruct (observe g2 b) as [| | |e2 b'|e2 t2 f2]; try discriminate Hs; try exact I; cbn [succs] in Hs;
    (destruct (event_eqb e1 e2) eqn:E; [|discriminate]); apply event_eqb_spec in E; injection Hs as <-;
    (split; [exact E|]).
  - apply IH, Hin. left; reflexivity.
  - split; apply IH, Hin; [left | right; left]; reflexivity.
Qed.

Lemma explore_sound fuel g1 g2 :
  forall todo visited res,
    explore fuel g1 g2 todo visited = EqOk res ->
    incl visited res /\ incl todo res /\
    forall p, In p res ->
      In p visited \/ exists ss, succs (observe g1 (fst p)) (observe g2 (snd p)) = Some ss /\ incl ss res.
Proof.
  induction fuel as [|f IH]; intros todo visited res Hrun; cbn [explore] in Hrun; [discriminate|].
  destruct todo as [|p todo'].
  - injection Hrun as <-. split; [apply incl_refl|]. split; [apply incl_nil_l | intros p Hp; left; exact Hp].
  - destruct (pp_mem p visited) eqn:Hm.
    + apply pp_mem_In in Hm. destruct (IH _ _ _ Hrun) as (Hv & Ht & Hc).
      split; [exact Hv|]. split; [apply incl_cons; [apply Hv, Hm | exact Ht] | exact Hc].
    + destruct (succs (observe g1 (fst p)) (observe g2 (snd p))) as [ss|] eqn:Hs; [|discriminate].
      destruct (IH _ _ _ Hrun) as (Hv & Ht & Hc).
      apply incl_cons_inv in Hv. destruct Hv as [Hp Hv]. apply incl_app_inv in Ht. destruct Ht as [Hss Ht].
      split; [exact Hv|]. split; [apply incl_cons; assumption|].
      intros q Hq. destruct (Hc q Hq) as [[<-|H]|H]; [right; exists ss; split; assumption | left; exact H | right; exact H].
Qed.

Theorem equiv_check_sound g1 g2 entries :
  equiv_check g1 g2 entries = true ->
  forall a b, In (a, b) entries -> beh_eq g1 g2 a b.
Proof.
  unfold equiv_check, equiv_run. intros H a b Hin k.
  destruct (explore (equiv_fuel g1 g2 entries) g1 g2 entries []) as [res| |] eqn:Hrun; try discriminate.
  destruct (explore_sound _ _ _ _ _ _ Hrun) as (_ & Ht & Hc).
  apply (closed_set_beh g1 g2 (fun p => In p res)); [|apply Ht, Hin].
  intros p Hp. destruct (Hc p Hp) as [[]|Hs]. unfold incl in Hs. exact Hs.
Qed.

(* beh_eq is an equivalence relation (on programs whose behaviour is defined). *)
Lemma beh_n_sym k : forall g1 g2 a b, beh_n k g1 g2 a b -> beh_n k g2 g1 b a.
Proof.
  induction k as [|k IH]; intros g1 g2 a b H; cbn [beh_n] in *; [exact I|].
  destruct (observe g1 a); try contradiction; destruct (observe g2 b); try exact H; try contradiction.
  - destruct H as [E H]. split; [symmetry; exact E | apply IH; exact H].
  - destruct H as [E [H1 H2]]. split; [symmetry; exact E|]. split; apply IH; assumption.
Qed.

Lemma beh_n_trans k : forall g1 g2 g3 a b c,
  beh_n k g1 g2 a b -> beh_n k g2 g3 b c -> beh_n k g1 g3 a c.
Proof.
  induction k as [|k IH]; intros g1 g2 g3 a b c H1 H2; cbn [beh_n] in *; [exact I|].
  destruct (observe g1 a); try contradiction; destruct (observe g2 b); try contradiction;
    destruct (observe g3 c); try contradiction; try exact I.
  - destruct H1 as [E1 H1], H2 as [E2 H2]. split; [congruence | eapply IH; eassumption].
  - destruct H1 as [E1 [H1 H1']], H2 as [E2 [H2 H2']]. split; [congruence|].
    split; eapply IH; eassumption.
Qed.

Theorem beh_eq_sym g1 g2 a b : beh_eq g1 g2 a b -> beh_eq g2 g1 b a.
Proof. intros H k. apply beh_n_sym, H. Qed.

Theorem beh_eq_trans g1 g2 g3 a b c : beh_eq g1 g2 a b -> beh_eq g2 g3 b c -> beh_eq g1 g3 a c.
Proof. intros H1 H2 k. eapply beh_n_trans; [apply H1 | apply H2]. Qed.

(* Equivalent program points perform the same sequence of operations and tests under every
   oracle, to every length. *)
Theorem beh_eq_traces g1 g2 a b :
  beh_eq g1 g2 a b -> forall steps orc i, trace steps orc i g1 a = trace steps orc i g2 b.
Proof.
  (* depth [steps] is enough for [steps] items *)
  intros H steps. specialize (H steps). revert a b H.
  induction steps as [|s IH]; intros a b H orc i; cbn [beh_n trace] in *; [reflexivity|].
  destruct (observe g1 a); try contradiction; destruct (observe g2 b); try contradiction; try reflexivity.
  - destruct H as [E H]. subst. f_equal. apply IH, H.
  - destruct H as [E [Ht Hf]]. subst. f_equal. destruct (orc i); apply IH; assumption.
Qed.

(* Non-vacuity: a one-node loop is equivalent to its unrolling. *)
Example equiv_example :
  let e : event := ("op"%string, [PInt 1]) in
  let g1 := [NOp e 0] in
  let g2 := [NOp e 1; NGoto 2; NOp e 0] in
  equiv_check g1 g2 [(0, 0)] = true.
Proof. vm_compute. reflexivity. Qed.

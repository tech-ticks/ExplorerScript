(* Control-flow graphs with observable events: the common semantic domain of SSB op lists and
   ExplorerScript routines.  Behavioural equivalence = bisimilarity of observations. *)
From ES Require Import Base Ssb.Param.

Definition event := (string * list param)%type.

Definition event_eqb (a b : event) : bool := String.eqb (fst a) (fst b) && params_eqb (snd a) (snd b).
Lemma event_eqb_spec a b : event_eqb a b = true <-> a = b.
Proof. exact (pair_eqb_spec String.eqb params_eqb String.eqb_eq params_eqb_spec a b). Qed.

Inductive node :=
| NOp (e : event) (next : nat)          (* perform an operation, continue *)
| NTest (e : event) (t f : nat)         (* perform a test: taken -> t, not taken -> f *)
| NGoto (n : nat)                       (* silent move (Jump) *)
| NStop                                 (* the routine stops *)
| NStuck.                               (* undefined behaviour (dangling target) *)

Definition cfg := list node.

Inductive obs :=
| OStop | OStuck | OFuel
| OEv (e : event) (n : nat)
| OTst (e : event) (t f : nat).

Fixpoint next_obs (fuel : nat) (g : cfg) (n : nat) : obs :=
  match fuel with
  | O => OFuel
  | S fuel' =>
      match nth_error g n with
      | None => OStuck
      | Some NStop => OStop
      | Some NStuck => OStuck
      | Some (NOp e n') => OEv e n'
      | Some (NTest e t f) => OTst e t f
      | Some (NGoto n') => next_obs fuel' g n'
      end
  end.

(* |g|+1 steps suffice unless there is a cycle of silent moves. *)
Definition observe (g : cfg) (n : nat) : obs := next_obs (S (length g)) g n.

(* undefined behaviour (stuck, out of fuel) matches nothing, not even itself: [beh_eq] is reflexive only on graphs
   without it *)
Fixpoint beh_n (k : nat) (g1 g2 : cfg) (a b : nat) : Prop :=
  match k with
  | O => True
  | S k' =>
      match observe g1 a, observe g2 b with
      | OStop, OStop => True
      | OEv e1 a', OEv e2 b' => e1 = e2 /\ beh_n k' g1 g2 a' b'
      | OTst e1 t1 f1, OTst e2 t2 f2 => e1 = e2 /\ beh_n k' g1 g2 t1 t2 /\ beh_n k' g1 g2 f1 f2
      | _, _ => False
      end
  end.

(* Behavioural equivalence: equal observations to every depth. *)
Definition beh_eq (g1 g2 : cfg) (a b : nat) : Prop := forall k, beh_n k g1 g2 a b.

(* The same thing said with traces: for every oracle deciding the outcome of the i-th test and
   every length, the two sides perform the same sequence of operations and tests. *)
Inductive item :=
| IOp (e : event)
| ITest (e : event) (taken : bool)
| IStop
| IUndefined.

Fixpoint trace (steps : nat) (orc : nat -> bool) (i : nat) (g : cfg) (n : nat) : list item :=
  match steps with
  | O => []
  | S s =>
      match observe g n with
      | OStop => [IStop]
      | OStuck | OFuel => [IUndefined]
      | OEv e n' => IOp e :: trace s orc i g n'
      | OTst e t f => let b := orc i in ITest e b :: trace s orc (S i) g (if b then t else f)
      end
  end.

(* a cycle of silent moves (Jump ops only): excluded by the properties *)
Definition silent_cycle (g : cfg) : bool :=
  existsb (fun n => match observe g n with OFuel => true | _ => false end) (seq 0 (length g)).

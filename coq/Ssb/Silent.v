(* Silent moves: what [observe] returns, stated without fuel, and a proof principle for behavioural
   equivalence of graphs that differ in silent nodes (labels, removed jumps). *)
From ES Require Import Base Ssb.Cfg.

(* a -> ... -> b by silent moves; [p] = the goto nodes passed *)
Inductive chain (g : cfg) : nat -> nat -> list nat -> Prop :=
| ch_nil a : chain g a a []
| ch_step a m b p : nth_error g a = Some (NGoto m) -> chain g m b p -> chain g a b (a :: p).

Definition terminal (g : cfg) (b : nat) : Prop :=
  match nth_error g b with Some (NGoto _) => False | _ => True end.

(* only used at terminal nodes; the answer for a goto is a dummy that [matches] rejects *)
Definition obs_at (g : cfg) (b : nat) : obs :=
  match nth_error g b with
  | None | Some NStuck => OStuck
  | Some NStop => OStop
  | Some (NOp e n) => OEv e n
  | Some (NTest e t f) => OTst e t f
  | Some (NGoto _) => OFuel
  end.

Lemma next_obs_terminal g a fuel : terminal g a -> next_obs (S fuel) g a = obs_at g a.
Proof.
  unfold terminal, obs_at. cbn [next_obs]. destruct (nth_error g a) as [[e n|e t f|n| |]|]; try reflexivity. contradiction.
Qed.

Lemma next_obs_chain g a b p : chain g a b p -> terminal g b ->
  forall fuel, length p < fuel -> next_obs fuel g a = obs_at g b.
Proof.
  induction 1 as [a|a m b p Hn Hc IH]; intros Ht fuel Hf.
  - destruct fuel; [cbn in Hf; lia | apply next_obs_terminal, Ht].
  - destruct fuel; [cbn in Hf; lia|]. cbn [next_obs]. rewrite Hn. apply IH; [exact Ht | cbn [length] in Hf; lia].
Qed.

Lemma chain_det g a b1 p1 : chain g a b1 p1 -> terminal g b1 ->
  forall b2 p2, chain g a b2 p2 -> terminal g b2 -> b1 = b2 /\ p1 = p2.
Proof.
  induction 1 as [a|a m b p Hn Hc IH]; intros Ht b2 p2 H2 Ht2.
  - inversion H2 as [|? m' ? p' Hn' Hc']; subst; [split; reflexivity|].
    unfold terminal in Ht. rewrite Hn' in Ht. contradiction.
  - inversion H2 as [|? m' ? p' Hn' Hc']; subst.
    + unfold terminal in Ht2. rewrite Hn in Ht2. contradiction.
    + rewrite Hn in Hn'. injection Hn' as <-. destruct (IH Ht _ _ Hc' Ht2) as [E1 E2]. subst. split; reflexivity.
Qed.

Lemma chain_suffix g a b p : chain g a b p -> forall x, In x p ->
  exists p', chain g x b p' /\ length p' <= length p.
Proof.
  induction 1 as [a|a m b p Hn Hc IH]; intros x Hin; [contradiction|].
  destruct Hin as [<-|Hin].
  - exists (a :: p). split; [econstructor; eassumption | lia].
  - destruct (IH x Hin) as [p' [Hc' Hl]]. exists p'. split; [exact Hc' | cbn [length]; lia].
Qed.

Lemma chain_nodup g a b p : chain g a b p -> terminal g b -> NoDup p.
Proof.
  induction 1 as [a|a m b p Hn Hc IH]; intro Ht; [constructor|].
  constructor; [|apply IH; exact Ht].
  intro Hin. destruct (chain_suffix _ _ _ _ Hc a Hin) as [p' [Hc' Hl]].
  assert (Hfull : chain g a b (a :: p)) by (econstructor; eassumption).
  destruct (chain_det _ _ _ _ Hfull Ht _ _ Hc' Ht) as [_ E]. subst p'. cbn [length] in Hl. lia.
Qed.

Lemma chain_range g a b p : chain g a b p -> forall x, In x p -> x < length g.
Proof.
  induction 1 as [a|a m b p Hn Hc IH]; intros x Hin; [contradiction|].
  destruct Hin as [<-|Hin]; [|apply IH; exact Hin].
  apply nth_error_Some. congruence.
Qed.

(* a terminating chain of silent moves fits into the fuel of [observe] *)
Theorem observe_chain g a b p : chain g a b p -> terminal g b -> observe g a = obs_at g b.
Proof.
  intros Hc Ht. unfold observe. apply (next_obs_chain _ _ _ _ Hc Ht).
  assert (Hl : length p <= length (seq 0 (length g))).
  { apply NoDup_incl_length; [apply (chain_nodup _ _ _ _ Hc Ht)|].
    intros x Hx. apply in_seq. pose proof (chain_range _ _ _ _ Hc x Hx). lia. }
  rewrite seq_length in Hl. lia.
Qed.

Definition reaches (g : cfg) (a : nat) (o : obs) : Prop :=
  exists b p, chain g a b p /\ terminal g b /\ obs_at g b = o.

Lemma observe_reaches g a o : reaches g a o -> observe g a = o.
Proof. intros (b & p & Hc & Ht & Ho). rewrite (observe_chain _ _ _ _ Hc Ht). exact Ho. Qed.

Lemma reaches_goto g a m o : nth_error g a = Some (NGoto m) -> reaches g m o -> reaches g a o.
Proof. intros Hn (b & p & Hc & Ht & Ho). exists b, (a :: p). split; [econstructor; eassumption | split; assumption]. Qed.

Lemma reaches_here g a : terminal g a -> reaches g a (obs_at g a).
Proof. intro Ht. exists a, []. split; [constructor | split; [exact Ht | reflexivity]]. Qed.

Definition matches (R : nat -> nat -> Prop) (o1 o2 : obs) : Prop :=
  match o1, o2 with
  | OStop, OStop => True
  | OEv e1 a, OEv e2 b => e1 = e2 /\ R a b
  | OTst e1 t1 f1, OTst e2 t2 f2 => e1 = e2 /\ R t1 t2 /\ R f1 f2
  | _, _ => False
  end.

(* Simulation up to silent moves: a relation whose related nodes reach matching observations with related
   successors is contained in behavioural equivalence. *)
Theorem simulation_beh_eq g1 g2 (R : nat -> nat -> Prop) :
  (forall a b, R a b -> exists o1 o2, reaches g1 a o1 /\ reaches g2 b o2 /\ matches R o1 o2) ->
  forall a b, R a b -> beh_eq g1 g2 a b.
Proof.
  intros Hsim a b HR k. revert a b HR. induction k as [|k IH]; intros a b HR; [exact I|].
  destruct (Hsim a b HR) as (o1 & o2 & H1 & H2 & Hm). cbn [beh_n].
  rewrite (observe_reaches _ _ _ H1), (observe_reaches _ _ _ H2).
  destruct o1, o2; try contradiction; cbn [matches] in Hm.
  - exact I.
  - destruct Hm as [-> HR']. split; [reflexivity | apply (IH _ _ HR')].
  - destruct Hm as [-> [Ht Hf]]. split; [reflexivity | split; [apply (IH _ _ Ht) | apply (IH _ _ Hf)]].
Qed.

(* what [observe] answers, if it is not "out of fuel", is reached by silent moves *)
Lemma next_obs_reaches g : forall fuel a o, next_obs fuel g a = o -> o <> OFuel -> reaches g a o.
Proof.
  induction fuel as [|fuel IH]; intros a o H Hne; [cbn [next_obs] in H; congruence|].
  destruct (nth_error g a) as [nd|] eqn:E; [destruct nd as [e n|e tt ff|n| |]|].
  3:{ cbn [next_obs] in H. rewrite E in H. apply (reaches_goto g a n o E (IH n o H Hne)). }
  all: assert (Ht : terminal g a) by (unfold terminal; rewrite E; exact I);
    rewrite <- H, (next_obs_terminal g a fuel Ht); apply (reaches_here g a Ht).
Qed.

Lemma no_silent_cycle_reaches g : silent_cycle g = false -> forall a, exists o, reaches g a o.
Proof.
  unfold silent_cycle. intros H a. exists (observe g a). apply (next_obs_reaches g _ a _ eq_refl).
  intro E. change (observe g a = OFuel) in E.
  destruct (Nat.lt_ge_cases a (length g)) as [Ha|Ha].
  - rewrite (proj2 (existsb_exists _ _)) in H; [discriminate|]. exists a. rewrite E. split; [apply in_seq; lia | reflexivity].
  - unfold observe in E. cbn [next_obs] in E. rewrite (proj2 (nth_error_None g a) Ha) in E. discriminate.
Qed.

Definition silently (g : cfg) (b b' : nat) : Prop := exists p, chain g b b' p.

Lemma silently_refl g b : silently g b b.
Proof. exists []. constructor. Qed.

Lemma silently_step g a m b : nth_error g a = Some (NGoto m) -> silently g m b -> silently g a b.
Proof. intros Hn [p Hc]. exists (a :: p). apply (ch_step g a m b p Hn Hc). Qed.

Lemma silently_reaches g b b' o : silently g b b' -> reaches g b' o -> reaches g b o.
Proof. intros [p Hc]. induction Hc as [|a m b' p Hn _ IH]; intro Hr; [exact Hr | apply (reaches_goto _ _ _ _ Hn (IH Hr))]. Qed.

Definition node_rel (R : nat -> nat -> Prop) (n1 n2 : node) : Prop :=
  match n1, n2 with
  | NOp e1 a, NOp e2 b => e1 = e2 /\ R a b
  | NTest e1 t1 f1, NTest e2 t2 f2 => e1 = e2 /\ R t1 t2 /\ R f1 f2
  | NGoto a, NGoto b => R a b
  | NStop, NStop => True
  | _, _ => False
  end.

(* What [b] must offer for the node at [a]: a silent move of [g1] is answered by silent moves of [g2]
   (possibly none), anything else by silent moves to a matching observation. *)
Definition node_sim (R : nat -> nat -> Prop) (g1 g2 : cfg) (a b : nat) : Prop :=
  match nth_error g1 a with
  | Some (NGoto m) => exists b', silently g2 b b' /\ R m b'
  | _ => exists o2, reaches g2 b o2 /\ matches R (obs_at g1 a) o2
  end.

Lemma node_rel_sim R g1 g2 a b n1 n2 :
  nth_error g1 a = Some n1 -> nth_error g2 b = Some n2 -> node_rel R n1 n2 -> node_sim R g1 g2 a b.
Proof.
  intros H1 H2 HR. unfold node_sim. rewrite H1.
  destruct n1 as [| |m| |]; try contradiction; destruct n2 as [| |m'| |]; try contradiction.
  3:{ exists m'. split; [apply (silently_step _ _ _ _ H2), silently_refl | exact HR]. }
  all: exists (obs_at g2 b); split; [apply reaches_here; unfold terminal; rewrite H2; exact I | unfold obs_at; rewrite H1, H2; exact HR].
Qed.

Theorem node_simulation g1 g2 (R : nat -> nat -> Prop) :
  (forall a b, R a b -> node_sim R g1 g2 a b) ->
  forall a o1, reaches g1 a o1 -> forall b, R a b -> exists o2, reaches g2 b o2 /\ matches R o1 o2.
Proof.
  intros Hsim a o1 (c & p & Hc & Ht & <-).
  induction Hc as [a|a m c p Hn _ IH]; intros b HR; specialize (Hsim _ _ HR); unfold node_sim in Hsim.
  - unfold terminal in Ht. destruct (nth_error g1 a) as [[]|]; try exact Hsim. contradiction.
  - rewrite Hn in Hsim. destruct Hsim as (b' & Hs & HR'). destruct (IH Ht _ HR') as (o2 & Hr & Hm).
    exists o2. split; [apply (silently_reaches _ _ _ _ Hs Hr) | exact Hm].
Qed.

Corollary node_simulation_beh_eq g1 g2 (R : nat -> nat -> Prop) :
  (forall a b, R a b -> node_sim R g1 g2 a b) ->
  (forall a b, R a b -> exists o, reaches g1 a o) ->
  forall a b, R a b -> beh_eq g1 g2 a b.
Proof.
  intros Hsim Hterm. apply simulation_beh_eq. intros a b HR. destruct (Hterm _ _ HR) as [o1 H1].
  destruct (node_simulation _ _ _ Hsim _ _ H1 _ HR) as (o2 & H2 & Hm). exists o1, o2. auto.
Qed.

(* Macro calls that can not be expanded: [inline] fails for every program that contains, at any depth that [has_call]
   looks at, a call to an unknown macro, a call with too few arguments, or a call into a set of macros that keep calling
   one another ([inline_rejects] over [doomed]). *)
From ES Require Import Base Lang.Ast Lang.Inline Lang.InlineProofs Lang.MacroStatic Lang.InlineFree.

Lemma bind_err {A B} (r : result A) (f : A -> result B) : is_err r = true -> is_err (bind r f) = true.
Proof. destruct r; [discriminate | reflexivity]. Qed.

Section Fails.
Variable ms : list macro_def.
Variable bad : string -> nat -> bool.

(* up to [f], not at [f]: [inl_yields], from which [containment] is read off, descends through the fuel, and
   [doomed_call_fails] gets the premise from a strong induction, which gives every smaller amount *)
Definition calls_fail (f : nat) : Prop :=
  forall f' c k n a, f' <= f -> bad n (length a) = true -> is_err (inl_stmt f' ms c (SMacroCall n a) k) = true.

Lemma containment : forall f, calls_fail f ->
  (forall s c k, has_call bad s = true -> is_err (inl_stmt f ms c s k) = true) /\
  (forall ss c k, has_calls bad ss = true -> is_err (inl_stmts f ms c ss k) = true) /\
  (forall el c k, has_call_elifs bad el = true -> is_err (inl_elifs f ms c el k) = true) /\
  (forall o c k, has_call_ostmts bad o = true -> is_err (inl_ostmts f ms c o k) = true) /\
  (forall cs c k, has_call_cases bad cs = true -> is_err (inl_cases f ms c cs k) = true).
Proof.
  intros f CF. destruct (inl_yields ms bad bad f CF) as (Y1 & Y2 & Y3 & Y4 & Y5).
  repeat split; intros x c k; eapply yields_false_err; [apply Y1 | apply Y2 | apply Y3 | apply Y4 | apply Y5].
Qed.
End Fails.

Lemma subst_params_length e a : length (subst_params e a) = length a.
Proof. apply map_length. Qed.

Lemma zip_env_few vars : forall args, length args < length vars -> zip_env vars args = None.
Proof.
  induction vars as [|v vr IH]; intros args H; [destruct (Nat.nlt_0_r _ H)|].
  destruct args as [|a ar]; [reflexivity|]. cbn [zip_env]. rewrite IH; [reflexivity | apply Nat.succ_lt_mono, H].
Qed.

(* [inner] picks calls of the body that are bad in turn; it need not be [bad]: for [self_recursive] it is the calls
   to the same macro *)
Definition doomed (ms : list macro_def) (bad : string -> nat -> bool) : Prop :=
  forall n k, bad n k = true ->
    match find_macro n ms with
    | None => True
    | Some m => k < length (m_vars m) \/
                exists inner, has_calls inner (m_body m) = true /\ forall n' k', inner n' k' = true -> bad n' k' = true
    end.

Lemma doomed_call_fails ms bad : doomed ms bad ->
  forall f c k n a, bad n (length a) = true -> is_err (inl_stmt f ms c (SMacroCall n a) k) = true.
Proof.
  intros D f. induction f as [f IH] using lt_wf_ind. intros c k n a H. destruct f as [|f]; [reflexivity|].
  rewrite inl_SMacroCall. generalize (D n _ H).
  case (find_macro n ms); [intros m [Hk | (inner & Hb & Hin)] | reflexivity].
  - rewrite zip_env_few; [reflexivity | rewrite subst_params_length; exact Hk].
  - case (zip_env _ _); [intro e' | reflexivity]. apply bind_err.
    (* the body contains an inner call; inner calls are bad, and bad calls fail with less fuel *)
    apply (containment ms inner f); [|exact Hb]. intros g c' k' n' a' Hg Hb'. apply IH; [apply le_n_S, Hg | apply Hin, Hb'].
Qed.

Theorem inline_rejects bad p : doomed (p_macros p) bad -> program_has bad p = true -> is_err (inline p) = true.
Proof.
  intro D. eapply yields_false_err, (inline_yields p bad bad).
  intros f c k n a. apply doomed_call_fails, D.
Qed.

Lemma unknown_doomed ms : doomed ms (unknown_macro ms).
Proof. intros n k H. unfold unknown_macro in H. destruct (find_macro n ms); [discriminate H | exact I]. Qed.

Lemma too_few_doomed ms : doomed ms (too_few_args ms).
Proof.
  intros n k H. unfold too_few_args in H. destruct (find_macro n ms); [left; apply Nat.ltb_lt; exact H | exact I].
Qed.

Lemma self_recursive_doomed ms : doomed ms (self_recursive ms).
Proof.
  intros n k H. unfold self_recursive in H. destruct (find_macro n ms) as [m|] eqn:E; [right | exact I].
  exists (fun n' _ => String.eqb n' n). split; [exact H|]. intros n' k' E'. apply String.eqb_eq in E'. subst n'.
  unfold self_recursive. rewrite E. exact H.
Qed.

Lemma trap_doomed ms D : trap ms D = true -> doomed ms (fun n _ => mem_string n D).
Proof.
  intros HT n k H. unfold trap in HT. apply (forallb_In _ _ n) in HT; [cbn beta in HT | apply mem_string_In, H].
  destruct (find_macro n ms); [right | exact I]. exists (fun n' _ => mem_string n' D). split; [exact HT | trivial].
Qed.

Theorem unknown_macro_rejected p : program_has (unknown_macro (p_macros p)) p = true -> is_err (inline p) = true.
Proof. apply inline_rejects, unknown_doomed. Qed.

Theorem too_few_arguments_rejected p : program_has (too_few_args (p_macros p)) p = true -> is_err (inline p) = true.
Proof. apply inline_rejects, too_few_doomed. Qed.

Theorem recursive_macro_rejected p : program_has (self_recursive (p_macros p)) p = true -> is_err (inline p) = true.
Proof. apply inline_rejects, self_recursive_doomed. Qed.

Theorem macro_cycle_rejected p D : trap (p_macros p) D = true ->
  program_has (fun n _ => mem_string n D) p = true -> is_err (inline p) = true.
Proof. intros HT. apply inline_rejects, trap_doomed, HT. Qed.

(* The domain of the specification: the translation of a statement succeeds exactly if the statement is well scoped
   and its parts have events, whatever the continuation and the graph built so far ([tr_answers]);
   [cfg_of_prog_is_ok] is the same for a program.  Lang/DomainProofs.v has the forms of both in Prop. *)
From ES Require Import Base Ssb.Cfg Lang.Ast Lang.Spec Lang.SrcSem Lang.Static Lang.Domain.

Scheme stmt_mind := Induction for stmt Sort Prop
with stmts_mind := Induction for stmts Sort Prop
with elifs_mind := Induction for elifs Sort Prop
with ostmts_mind := Induction for option_stmts Sort Prop
with cases_mind := Induction for cases Sort Prop.
Combined Scheme ast_mutind from stmt_mind, stmts_mind, elifs_mind, ostmts_mind, cases_mind.

(* [P] is [any] except for [tr_cases], which tells whether a body follows *)
Definition answers {A} (m : M A) (b : bool) (P : A -> Prop) : Prop :=
  forall st, match m st with Ok (a, _) => b = true /\ P a | Err _ => b = false end.

Definition any {A} (_ : A) : Prop := True.

Lemma answers_ret_in {A} (a : A) (P : A -> Prop) : P a -> answers (ret a) true P.
Proof. intros H st. split; [reflexivity | exact H]. Qed.

Lemma answers_ret {A} (a : A) : answers (ret a) true any.
Proof. exact (answers_ret_in a any I). Qed.

Lemma answers_fail {A} msg (P : A -> Prop) : answers (fail msg) false P.
Proof. intro st. reflexivity. Qed.

Lemma answers_alloc n : answers (alloc n) true any.
Proof. intro st. split; [reflexivity | exact I]. Qed.

Lemma answers_patch i n : answers (patch i n) true any.
Proof. intro st. split; [reflexivity | exact I]. Qed.

Lemma answers_lift {A} (x : result A) : answers (lift x) (is_ok x) any.
Proof. intro st. destruct x; [split; [reflexivity | exact I] | reflexivity]. Qed.

Lemma answers_need {A} (o : option A) msg : answers (need o msg) (is_some o) any.
Proof. intro st. destruct o; [split; [reflexivity | exact I] | reflexivity]. Qed.

(* The condition of what follows stands first: a construct is translated from its last part to its first (but a for
   loop in the order increment, body, condition, initialisation), and [ws_*] and [ev_*] list the parts from the first
   to the last. *)
Lemma answers_bind {A B} (m : M A) (f : A -> M B) b c P Q :
  answers m b P -> (forall a, P a -> answers (f a) c Q) -> answers (mbind m f) (c && b) Q.
Proof.
  intros Hm Hf st. unfold mbind. specialize (Hm st). destruct (m st) as [[a st']|].
  - destruct Hm as [-> Ha]. rewrite andb_true_r. exact (Hf a Ha st').
  - rewrite Hm. apply andb_false_r.
Qed.

Lemma answers_first {A B} (m : M A) (f : A -> M B) b P Q :
  answers m b P -> (forall a, P a -> answers (f a) true Q) -> answers (mbind m f) b Q.
Proof. exact (answers_bind m f b true P Q). Qed.

Lemma answers_eq {A} (m : M A) b b' (P : A -> Prop) : answers m b P -> b = b' -> answers m b' P.
Proof. intros Hm <-. exact Hm. Qed.

Lemma answers_rest {A B} (m : M A) (f : A -> M B) c P Q :
  answers m true P -> (forall a, P a -> answers (f a) c Q) -> answers (mbind m f) c Q.
Proof. intros Hm Hf. eapply answers_eq; [exact (answers_bind m f true c P Q Hm Hf) | apply andb_true_r]. Qed.

(* One action [m] of a translation [mbind m f], for which [H] answers; the goal left is about [f].  [bind_first]: what
   follows always answers, so the first action decides ([answers_first]); [bind_rest]: the action always answers, so
   what follows decides ([answers_rest]).  All three drop what [H] says of the result of [m]: where that is needed (the
   flag of [tr_cases]), or [m] takes a case distinction before [H] applies, the rule is applied by hand. *)
Tactic Notation "bind" uconstr(H) := eapply answers_bind; [apply H | intros ? _].
Tactic Notation "bind_first" uconstr(H) := eapply answers_first; [apply H | intros ? _].
Tactic Notation "bind_rest" uconstr(H) := eapply answers_rest; [apply H | intros ? _].

Lemma answers_if {A} (x : bool) (m1 m2 : M A) b P :
  answers m1 b P -> answers m2 b P -> answers (if x then m1 else m2) b P.
Proof. destruct x; trivial. Qed.

Lemma answers_unless {A} (x : bool) msg (m : M A) b P :
  answers m b P -> answers (if x then fail msg else m) (b && negb x) P.
Proof. destruct x; [intros _; rewrite andb_false_r; apply answers_fail | rewrite andb_true_r; trivial]. Qed.

Lemma answers_when {A} (x : bool) msg (m : M A) P : answers m true P -> answers (if x then m else fail msg) x P.
Proof. destruct x; [trivial | intros _; apply answers_fail]. Qed.

Lemma answers_is_ok {A} (m : M A) b P st : answers m b P -> is_ok (m st) = b.
Proof. intro H. specialize (H st). destruct (m st) as [[a st']|]; symmetry; apply H. Qed.

Lemma andb_pairs a1 a2 b1 b2 : (a1 && a2) && (b1 && b2) = (a1 && b1) && (a2 && b2).
Proof. destruct a1, a2, b1; reflexivity. Qed.

Lemma andb_pairs3 a1 a2 a3 b1 b2 b3 : (a1 && a2 && a3) && (b1 && b2 && b3) = (a1 && b1) && (a2 && b2) && (a3 && b3).
Proof. rewrite andb_pairs. f_equal. apply andb_pairs. Qed.

Lemma andb_pairs4 a1 a2 a3 a4 b1 b2 b3 b4 :
  (a1 && a2 && a3 && a4) && (b1 && b2 && b3 && b4) = (a1 && b1) && (a2 && b2) && (a3 && b3) && (a4 && b4).
Proof. rewrite andb_pairs. f_equal. apply andb_pairs3. Qed.

Lemma andb_second_last a b c d : a && b && c && d = a && c && d && b.
Proof. destruct b; [rewrite !andb_true_r | rewrite !andb_false_r]; reflexivity. Qed.

Lemma is_some_assoc {A} l (t : list (string * A)) : is_some (assoc_string l t) = mem_string l (map fst t).
Proof.
  induction t as [|[k x] t IH]; [reflexivity|]. cbn [assoc_string map fst mem_string existsb].
  destruct (String.eqb l k); [reflexivity | exact IH].
Qed.

Lemma cond_event_not_bad perf c : is_ok (cond_event perf c) = true -> bad_not_bit perf c = false.
Proof.
  destruct c as [| | [|] v i | |]; try reflexivity. cbn [cond_event bad_not_bit].
  case (is_perf perf v); [reflexivity | discriminate].
Qed.

Lemma answers_cond perf c :
  answers (lift (cond_event perf c)) (negb (bad_not_bit perf c) && is_ok (cond_event perf c)) any.
Proof.
  eapply answers_eq; [apply answers_lift|]. destruct (is_ok (cond_event perf c)) eqn:E; [|symmetry; apply andb_false_r].
  rewrite (cond_event_not_bad _ _ E). reflexivity.
Qed.

Lemma tr_conds_cons perf neg c c2 rest yes no : tr_conds perf neg (c :: c2 :: rest) yes no =
  dom nxt <- tr_conds perf neg (c2 :: rest) yes no;
  dom ev <- lift (cond_event perf c);
  if neg then alloc (NTest ev no nxt) else alloc (NTest ev yes nxt).
Proof. reflexivity. Qed.

Lemma tr_conds_answers perf neg cs yes no :
  answers (tr_conds perf neg cs yes no) (conds_ok perf cs && forallb (fun c => is_ok (cond_event perf c)) cs) any.
Proof.
  unfold conds_ok. induction cs as [|c [|c2 rest] IH]; [apply answers_fail | |].
  - cbn [tr_conds forallb negb andb]. rewrite !andb_true_r. bind_first answers_cond.
    apply answers_if; apply answers_alloc.
  - rewrite tr_conds_cons. cbn [forallb negb andb] in *. rewrite andb_pairs. bind IH. bind_first answers_cond.
    apply answers_if; apply answers_alloc.
Qed.

Definition scope_sw (e : env) := is_some (e_break e).
Definition scope_ct (e : env) := is_some (e_cont e).
Definition scope_bl (e : env) := is_some (e_brkloop e).
Definition scope_L (e : env) := map fst (e_labels e).

Lemma answers_label l e msg : answers (need (assoc_string l (e_labels e)) msg) (mem_string l (scope_L e)) any.
Proof. eapply answers_eq; [apply answers_need | apply is_some_assoc]. Qed.

Lemma tr_inctx_answers e s k :
  answers (tr_inctx e s k) (inctx_ok (scope_L e) (scope_sw e) (scope_ct e) (scope_bl e) s && ev_inctx (e_perf e) s) any.
Proof.
  destruct s as [[?|] name args|l|l|l|c|a| | | | | | | |]; cbn [inctx_ok ev_inctx andb]; try apply answers_fail.
  - apply answers_when, answers_alloc.
  - rewrite andb_true_r. apply answers_label.
  - rewrite andb_true_r. bind_first answers_label. apply answers_alloc.
  - rewrite andb_true_r. destruct c; try apply answers_alloc; apply answers_need.
  - bind_first answers_lift. apply answers_alloc.
Qed.

Lemma tr_case_tests_total sw lst dflt : answers (tr_case_tests sw lst dflt) true any.
Proof.
  induction lst as [|[[h|] e] rest IH]; cbn [tr_case_tests]; [apply answers_ret | | exact IH].
  bind_first IH. apply answers_alloc.
Qed.

Lemma tr_msg_cases_total cs k : answers (tr_msg_cases cs k) true any.
Proof.
  induction cs as [|[v s] rest IH]; cbn [tr_msg_cases]; [apply answers_ret|].
  bind_first IH. apply answers_alloc.
Qed.

Section Eqs.
Variables (perf : string) (L : list string) (sw ct bl : bool).
Lemma ws_SIf n cs b el els : ws_stmt perf L sw ct bl (SIf n cs b el els) =
  conds_ok perf cs && ws_stmts perf L sw ct bl b && ws_elifs perf L sw ct bl el && ws_ostmts perf L sw ct bl els.
Proof. reflexivity. Qed.
Lemma ws_SSwitch h cs :
  ws_stmt perf L sw ct bl (SSwitch h cs) = Nat.leb (count_defaults cs) 1 && ws_cases perf L true ct bl cs.
Proof. reflexivity. Qed.
Lemma ws_SForever b : ws_stmt perf L sw ct bl (SForever b) = ws_stmts perf L sw true true b.
Proof. reflexivity. Qed.
Lemma ws_SWhile n c b :
  ws_stmt perf L sw ct bl (SWhile n c b) = negb (bad_not_bit perf c) && ws_stmts perf L sw true true b.
Proof. reflexivity. Qed.
Lemma ws_SFor i c n b : ws_stmt perf L sw ct bl (SFor i c n b) =
  ws_stmt perf L sw ct bl i && ws_stmt perf L sw ct bl n && negb (bad_not_bit perf c) && ws_stmts perf L sw true true b.
Proof. reflexivity. Qed.
Lemma ws_SCons s r : ws_stmts perf L sw ct bl (SCons s r) = ws_stmt perf L sw ct bl s && ws_stmts perf L sw ct bl r.
Proof. reflexivity. Qed.
Lemma ws_ECons n cs b r : ws_elifs perf L sw ct bl (ECons n cs b r) =
  conds_ok perf cs && ws_stmts perf L sw ct bl b && ws_elifs perf L sw ct bl r.
Proof. reflexivity. Qed.
Lemma ws_OSome b : ws_ostmts perf L sw ct bl (OSome b) = ws_stmts perf L sw ct bl b.
Proof. reflexivity. Qed.
Lemma ws_KCase h b r : ws_cases perf L sw ct bl (KCase h b r) =
  negb (is_snil b && is_knil r) && ws_stmts perf L sw ct bl b && ws_cases perf L sw ct bl r.
Proof. reflexivity. Qed.
Lemma ws_KDefault b r : ws_cases perf L sw ct bl (KDefault b r) =
  negb (is_snil b && is_knil r) && ws_stmts perf L sw ct bl b && ws_cases perf L sw ct bl r.
Proof. reflexivity. Qed.

Lemma ev_SIf n cs b el els : ev_stmt perf (SIf n cs b el els) =
  forallb (fun c => is_ok (cond_event perf c)) cs && ev_stmts perf b && ev_elifs perf el && ev_ostmts perf els.
Proof. reflexivity. Qed.
Lemma ev_SSwitch h cs : ev_stmt perf (SSwitch h cs) = is_ok (switch_event h) && ev_cases perf cs.
Proof. reflexivity. Qed.
Lemma ev_SForever b : ev_stmt perf (SForever b) = ev_stmts perf b. Proof. reflexivity. Qed.
Lemma ev_SWhile n c b : ev_stmt perf (SWhile n c b) = is_ok (cond_event perf c) && ev_stmts perf b.
Proof. reflexivity. Qed.
Lemma ev_SFor i c d b : ev_stmt perf (SFor i c d b) =
  ev_stmt perf i && ev_stmt perf d && is_ok (cond_event perf c) && ev_stmts perf b. Proof. reflexivity. Qed.
Lemma ev_SCons s r : ev_stmts perf (SCons s r) = ev_stmt perf s && ev_stmts perf r. Proof. reflexivity. Qed.
Lemma ev_ECons n cs b r : ev_elifs perf (ECons n cs b r) =
  forallb (fun c => is_ok (cond_event perf c)) cs && ev_stmts perf b && ev_elifs perf r. Proof. reflexivity. Qed.
Lemma ev_OSome b : ev_ostmts perf (OSome b) = ev_stmts perf b. Proof. reflexivity. Qed.
Lemma ev_KCase h b r : ev_cases perf (KCase h b r) = ev_stmts perf b && ev_cases perf r. Proof. reflexivity. Qed.
Lemma ev_KDefault b r : ev_cases perf (KDefault b r) = ev_stmts perf b && ev_cases perf r. Proof. reflexivity. Qed.
End Eqs.

Definition domain {X} (ws : string -> list string -> bool -> bool -> bool -> X -> bool) (ev : string -> X -> bool)
  (e : env) (x : X) : bool :=
  ws (e_perf e) (scope_L e) (scope_sw e) (scope_ct e) (scope_bl e) x && ev (e_perf e) x.

Theorem tr_answers :
  (forall s e k, answers (tr_stmt e s k) (domain ws_stmt ev_stmt e s) any) /\
  (forall ss e k, answers (tr_stmts e ss k) (domain ws_stmts ev_stmts e ss) any) /\
  (forall el e else_e k, answers (tr_elifs e el else_e k) (domain ws_elifs ev_elifs e el) any) /\
  (forall o e k, answers (tr_ostmts e o k) (domain ws_ostmts ev_ostmts e o) any) /\
  (forall cs e k, answers (tr_cases e cs k) (domain ws_cases ev_cases e cs) (fun r => snd r = negb (is_knil cs))).
Proof.
  (* The conditions are brought into the order of the translation first, on a small goal.  The translation of a
     compound statement is unfolded by [cbn], which folds the calls to the other four functions back.  Where a
     hypothesis is used at [with_break e k] or [with_loop e c b], the scopes of that environment are those of [e] with
     [sw], or [ct] and [bl], set: by computation. *)
  apply ast_mutind; unfold domain.
  - intros c name args e k. cbn [tr_stmt ws_stmt ev_stmt andb]. destruct c as [[kind target]|].
    + case (plain_op_name name); [|apply answers_fail].
      bind_first answers_lift. bind_first answers_alloc. apply answers_alloc.
    + apply answers_when, answers_alloc.
  - intros l e k. cbn [ws_stmt ev_stmt]. rewrite andb_true_r.
    bind_first answers_label. bind_first answers_patch. apply answers_ret.
  - intros l e k. cbn [ws_stmt ev_stmt]. rewrite andb_true_r. apply answers_label.
  - intros l e k. cbn [ws_stmt ev_stmt]. rewrite andb_true_r. bind_first answers_label. apply answers_alloc.
  - intros c e k. cbn [ws_stmt ev_stmt]. rewrite andb_true_r. destruct c; try apply answers_alloc; apply answers_need.
  - intros a e k. cbn [ws_stmt ev_stmt andb]. bind_first answers_lift. apply answers_alloc.
  - intros kind target s _ e k. cbn [ws_stmt ev_stmt]. rewrite (andb_comm (is_ok _)), andb_assoc.
    bind answers_lift. bind_first tr_inctx_answers. apply answers_alloc.
  - intros neg cs body IHb el IHel els IHels e k. rewrite ws_SIf, ev_SIf, andb_pairs4. cbn [tr_stmt].
    bind IHels. bind IHel. bind IHb. apply tr_conds_answers.
  - intros h cs IH e k.
    (* to the order cases, defaults, header; [Nat.leb_antisym] turns [_ <=? 1] into the [negb (1 <? _)] of
       [answers_unless] *)
    rewrite ws_SSwitch, ev_SSwitch, andb_pairs, andb_comm, andb_assoc, Nat.leb_antisym. cbn [tr_stmt].
    bind answers_lift. apply answers_unless.
    eapply answers_first; [exact (IH (with_break e k) k) | intros [[lst fall] have] _].
    cbv beta iota zeta. bind_first tr_case_tests_total. apply answers_alloc.
  - intros mono v cs dflt e k. cbn [tr_stmt]. eapply answers_rest; [|intros d _].
    + destruct dflt; [apply answers_alloc | apply answers_ret].
    + bind_first tr_msg_cases_total. apply answers_alloc.
  - intros body IH e k. rewrite ws_SForever, ev_SForever. cbn [tr_stmt].
    bind_rest answers_alloc. bind_first (IH (with_loop e _ _)). bind_first answers_patch. apply answers_ret.
  - intros neg c body IH e k. rewrite ws_SWhile, ev_SWhile, andb_pairs. cbn [tr_stmt].
    bind_rest answers_alloc. bind (IH (with_loop e _ _)). bind_first answers_cond. bind_first answers_patch.
    apply answers_ret.
  - intros init IHi c incr IHn body IHb e k. rewrite ws_SFor, ev_SFor, andb_pairs4, andb_second_last. cbn [tr_stmt].
    bind_rest answers_alloc. bind IHn. bind (IHb (with_loop e _ _)). bind answers_cond. bind_rest answers_patch.
    apply IHi.
  - intros; apply answers_fail.
  - intros; apply answers_ret.
  - intros s IHs r IHr e k. rewrite ws_SCons, ev_SCons, andb_pairs. cbn [tr_stmts]. bind IHr. apply IHs.
  - intros; apply answers_ret.
  - intros neg cs body IHb r IHr e else_e k. rewrite ws_ECons, ev_ECons, andb_pairs3. cbn [tr_elifs].
    bind IHr. bind IHb. apply tr_conds_answers.
  - intros; apply answers_ret.
  - intros b IH e k. rewrite ws_OSome, ev_OSome. cbn [tr_ostmts]. apply IH.
  - intros; apply answers_ret_in; reflexivity.
  - intros h body IHb r IHr e k. rewrite ws_KCase, ev_KCase. destruct body as [|s b]; cbn [is_snil andb negb].
    + cbn [ws_stmts ev_stmts andb]. rewrite andb_true_r, <- andb_assoc. cbn [tr_cases].
      eapply answers_bind; [apply IHr | intros [[lst fall] have] Hh]. cbn [snd] in Hh. subst have.
      apply answers_when. apply answers_ret_in. reflexivity.
    + rewrite andb_pairs. cbn [tr_cases]. eapply answers_bind; [apply IHr | intros [[lst fall] have] _].
      cbv beta iota zeta. bind_first IHb. apply answers_ret_in. reflexivity.
  - intros body IHb r IHr e k. rewrite ws_KDefault, ev_KDefault. destruct body as [|s b]; cbn [is_snil andb negb].
    + cbn [ws_stmts ev_stmts andb]. rewrite andb_true_r, <- andb_assoc. cbn [tr_cases].
      eapply answers_bind; [apply IHr | intros [[lst fall] have] Hh]. cbn [snd] in Hh. subst have.
      apply answers_when. apply answers_ret_in. reflexivity.
    + rewrite andb_pairs. cbn [tr_cases]. eapply answers_bind; [apply IHr | intros [[lst fall] have] _].
      cbv beta iota zeta. bind_first IHb. apply answers_ret_in. reflexivity.
Qed.

Lemma number_from_fst l : forall n, map fst (number_from n l) = l.
Proof. induction l as [|x r IH]; intro n; cbn [number_from map fst]; [reflexivity | rewrite IH; reflexivity]. Qed.

Lemma tr_entry_answers e rd :
  answers (match r_body rd with
           | SNil => ret None
           | b => if r_alias rd then fail "alias with statements" else dom en <- tr_stmts e b FALL; ret (Some en)
           end)
    (domain ws_stmts ev_stmts e (r_body rd) && (is_snil (r_body rd) || negb (r_alias rd))) any.
Proof.
  case (r_body rd); [apply answers_ret | intros s b]. cbn [is_snil orb]. apply answers_unless.
  bind_first (proj1 (proj2 tr_answers)). apply answers_ret.
Qed.

Lemma tr_routines_answers e rs : forall n,
  answers (tr_routines e rs n)
    (ids_in_order rs n &&
     forallb (fun rd => ws_stmts (e_perf e) (scope_L e) (scope_sw e) (scope_ct e) (scope_bl e) (r_body rd)) rs &&
     forallb (fun rd => ev_stmts (e_perf e) (r_body rd) && (is_snil (r_body rd) || negb (r_alias rd))) rs) any.
Proof.
  induction rs as [|rd rest IH]; intro n; [apply answers_ret|].
  cbn [tr_routines ids_in_order forallb]. eapply answers_eq.
  - apply answers_unless. bind (tr_entry_answers e rd). bind_first IH. apply answers_ret.
  - (* the rules give the conjuncts in the order of the translation; [ring] (the Boolean ring of the standard library)
       serves as the normaliser of [&&] modulo associativity and commutativity *)
    unfold domain. rewrite negb_involutive. ring.
Qed.

Theorem cfg_of_prog_is_ok perf p : is_ok (cfg_of_prog perf p) = well_scoped perf p && events_ok perf p.
Proof.
  unfold cfg_of_prog, well_scoped, events_ok. fold (file_labels p).
  case (has_dup (file_labels p)); [reflexivity|]. cbn [negb andb].
  set (e := mkEnv None None None (number_from 2 (file_labels p)) perf).
  set (init := NStop :: _).
  transitivity (is_ok (tr_routines e (p_routines p) 0%Z init)).
  { destruct (tr_routines _ _ _ _) as [[? ?]|]; reflexivity. }
  rewrite (answers_is_ok _ _ _ init (tr_routines_answers e _ 0%Z)). unfold scope_L, e. cbn [e_labels].
  rewrite number_from_fst. reflexivity.
Qed.

(* the specification gives a meaning only to well-scoped programs *)
Theorem meaning_implies_well_scoped perf p r : cfg_of_prog perf p = Ok r -> well_scoped perf p = true.
Proof.
  intro H. pose proof (cfg_of_prog_is_ok perf p) as E. rewrite H in E. apply eq_sym, andb_prop in E. apply E.
Qed.

(* each class of meaningless construct named by the property, as a consequence *)
Corollary no_meaning_examples perf :
  let prog_of b := mkProg [] [mkRoutine 0 RGeneric None None false b] in
  let one s := SCons s SNil in
  (forall r, cfg_of_prog perf (prog_of (one (SCtrl KBreak))) <> Ok r) /\
  (forall r, cfg_of_prog perf (prog_of (one (SIf false [CNeg false KwDebug] (one (SCtrl KContinue)) ENil ONone))) <> Ok r) /\
  (forall r, cfg_of_prog perf (prog_of (one (SForever (one (SCtrl KBreak))))) <> Ok r) /\
  (forall r l, cfg_of_prog perf (prog_of (one (SCall l))) <> Ok r) /\
  (forall r h c, cfg_of_prog perf (prog_of (one (SSwitch h (KCase c SNil KNil)))) <> Ok r) /\
  (forall r h b1 b2, cfg_of_prog perf (prog_of (one (SSwitch h (KDefault b1 (KDefault b2 KNil))))) <> Ok r) /\
  (forall r k t l, cfg_of_prog perf (prog_of (SCons (SWith k t (SLabel l)) SNil)) <> Ok r) /\
  (forall r n a, cfg_of_prog perf (prog_of (one (SMacroCall n a))) <> Ok r).
Proof.
  cbv zeta. repeat split; intros; intro H; apply meaning_implies_well_scoped in H;
    unfold well_scoped in H; cbn in H; rewrite ?andb_false_r in H; discriminate H.
Qed.

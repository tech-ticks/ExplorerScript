(* One-step equations of the inliner; the inlined program does not depend on the order in which the macros are
   defined. *)
From ES Require Import Base Lang.Ast Lang.Inline.
From Coq Require Import Permutation.

Definition for_header (e : senv) (cd : cond) (i1 i2 : stmts) (b : stmts * nat) : result (stmts * nat) :=
  match i1, i2 with
  | SCons a SNil, SCons d SNil => Ok (SCons (SFor a (subst_cond e cd) d (fst b)) SNil, snd b)
  | _, _ => Err "macro call in a for header"
  end.

(* [cbn] before [reflexivity]: the unifier takes twice as long over the five bodies of the fixpoint *)
Section Step.
Variables (f : nat) (ms : list macro_def) (c : ictx).
Lemma inl_SIf neg cs body el els k : inl_stmt (S f) ms c (SIf neg cs body el els) k =
  do b <- inl_stmts f ms c body k;
  do l <- inl_elifs f ms c el (snd b);
  do o <- inl_ostmts f ms c els (snd l);
  Ok (SCons (SIf neg (map (subst_cond (i_env c)) cs) (fst b) (fst l) (fst o)) SNil, snd o).
Proof. cbn [inl_stmt]. reflexivity. Qed.
Lemma inl_SSwitch h cs k : inl_stmt (S f) ms c (SSwitch h cs) k =
  do r <- inl_cases f ms c cs k; Ok (SCons (SSwitch (subst_swhdr (i_env c) h) (fst r)) SNil, snd r).
Proof. cbn [inl_stmt]. reflexivity. Qed.
Lemma inl_SForever body k : inl_stmt (S f) ms c (SForever body) k =
  do b <- inl_stmts f ms c body k; Ok (SCons (SForever (fst b)) SNil, snd b).
Proof. cbn [inl_stmt]. reflexivity. Qed.
Lemma inl_SWhile neg cd body k : inl_stmt (S f) ms c (SWhile neg cd body) k =
  do b <- inl_stmts f ms c body k; Ok (SCons (SWhile neg (subst_cond (i_env c) cd) (fst b)) SNil, snd b).
Proof. cbn [inl_stmt]. reflexivity. Qed.
Lemma inl_SFor init cd incr body k : inl_stmt (S f) ms c (SFor init cd incr body) k =
  do i1 <- inl_stmt f ms c init k;
  do i2 <- inl_stmt f ms c incr (snd i1);
  do b <- inl_stmts f ms c body (snd i2);
  for_header (i_env c) cd (fst i1) (fst i2) b.
Proof. cbn [inl_stmt]. reflexivity. Qed.
Lemma inl_SMacroCall nm args k : inl_stmt (S f) ms c (SMacroCall nm args) k =
  match find_macro nm ms with
  | None => Err "macro not found"
  | Some m =>
      match zip_env (m_vars m) (subst_params (i_env c) args) with
      | None => Err "too few macro arguments"
      | Some e' =>
          do b <- inl_stmts f ms (mkI e' (Some k)) (m_body m) (S k);
          Ok (sapp (fst b) (SCons (SLabel (end_label k)) SNil), snd b)
      end
  end.
Proof. cbn [inl_stmt]. reflexivity. Qed.
Lemma inl_SWith kind t inner k : exists inner',
  inl_stmt (S f) ms c (SWith kind t inner) k = Ok (SCons (SWith kind (subst_param (i_env c) t) inner') SNil, k).
Proof.
  cbn [inl_stmt]. destruct inner as [[?|] ? ?| | | |[]| | | | | | | | |]; try (eexists; reflexivity).
  destruct (i_exp c); eexists; reflexivity.
Qed.
Lemma inl_SCons s r k : inl_stmts (S f) ms c (SCons s r) k =
  do a <- inl_stmt f ms c s k; do b <- inl_stmts f ms c r (snd a); Ok (sapp (fst a) (fst b), snd b).
Proof. cbn [inl_stmts]. reflexivity. Qed.
Lemma inl_ECons neg cs body r k : inl_elifs (S f) ms c (ECons neg cs body r) k =
  do b <- inl_stmts f ms c body k;
  do rr <- inl_elifs f ms c r (snd b);
  Ok (ECons neg (map (subst_cond (i_env c)) cs) (fst b) (fst rr), snd rr).
Proof. cbn [inl_elifs]. reflexivity. Qed.
Lemma inl_OSome b k : inl_ostmts (S f) ms c (OSome b) k =
  do r <- inl_stmts f ms c b k; Ok (OSome (fst r), snd r).
Proof. cbn [inl_ostmts]. reflexivity. Qed.
Lemma inl_KCase h body r k : inl_cases (S f) ms c (KCase h body r) k =
  do b <- inl_stmts f ms c body k;
  do rr <- inl_cases f ms c r (snd b);
  Ok (KCase (subst_casehdr (i_env c) h) (fst b) (fst rr), snd rr).
Proof. cbn [inl_cases]. reflexivity. Qed.
Lemma inl_KDefault body r k : inl_cases (S f) ms c (KDefault body r) k =
  do b <- inl_stmts f ms c body k;
  do rr <- inl_cases f ms c r (snd b);
  Ok (KDefault (fst b) (fst rr), snd rr).
Proof. cbn [inl_cases]. reflexivity. Qed.
End Step.

Lemma inl_routines_cons ms r rest k : inl_routines ms (r :: rest) k =
  (do b <- inl_stmts INLINE_FUEL ms (mkI [] None) (r_body r) k;
   do others <- inl_routines ms rest (snd b);
   Ok (mkRoutine (r_id r) (r_kind r) (r_target r) (r_name r) (r_alias r) (fst b) :: others)).
Proof. reflexivity. Qed.

Lemma bind_cong {A B} (r r' : result A) (f g : A -> result B) :
  r = r' -> (forall a, f a = g a) -> bind r f = bind r' g.
Proof. intros <- H. destruct r; [apply H | reflexivity]. Qed.

Lemma find_macro_perm ms ms' : Permutation ms ms' -> NoDup (map m_name ms) ->
  forall n, find_macro n ms = find_macro n ms'.
Proof.
  induction 1 as [|x l l' Hp IH|x y l|l l' l'' H1 IH1 H2 IH2]; intros Hnd n.
  - reflexivity.
  - cbn [find_macro]. destruct (String.eqb (m_name x) n); [reflexivity|].
    cbn [map] in Hnd. apply NoDup_cons_iff in Hnd as [_ Hnd]. exact (IH Hnd n).
  - cbn [find_macro]. destruct (String.eqb (m_name y) n) eqn:Ey, (String.eqb (m_name x) n) eqn:Ex; try reflexivity.
    apply String.eqb_eq in Ey, Ex. exfalso. cbn [map] in Hnd. apply NoDup_cons_iff in Hnd as [Hnot _].
    apply Hnot. left. congruence.
  - rewrite IH1 by exact Hnd. apply IH2.
    apply (Permutation_NoDup (Permutation_map m_name H1) Hnd).
Qed.

Section SameLookup.
  Variables ms ms' : list macro_def.
  Hypothesis same : forall n, find_macro n ms = find_macro n ms'.

  Lemma inl_same : forall fuel,
    (forall c s k, inl_stmt fuel ms c s k = inl_stmt fuel ms' c s k) /\
    (forall c ss k, inl_stmts fuel ms c ss k = inl_stmts fuel ms' c ss k) /\
    (forall c el k, inl_elifs fuel ms c el k = inl_elifs fuel ms' c el k) /\
    (forall c o k, inl_ostmts fuel ms c o k = inl_ostmts fuel ms' c o k) /\
    (forall c cs k, inl_cases fuel ms c cs k = inl_cases fuel ms' c cs k).
  Proof.
    induction fuel as [|f IH]; [repeat split; reflexivity|].
    destruct IH as (I1 & I2 & I3 & I4 & I5). repeat split.
    - intros c s k. destruct s as [ | | | | | | | | | | | | |name args]; try reflexivity.
      + rewrite 2 inl_SIf. apply bind_cong; [apply I2 | intro b]. apply bind_cong; [apply I3 | intro l].
        apply bind_cong; [apply I4 | reflexivity].
      + rewrite 2 inl_SSwitch. apply bind_cong; [apply I5 | reflexivity].
      + rewrite 2 inl_SForever. apply bind_cong; [apply I2 | reflexivity].
      + rewrite 2 inl_SWhile. apply bind_cong; [apply I2 | reflexivity].
      + rewrite 2 inl_SFor. apply bind_cong; [apply I1 | intro i1]. apply bind_cong; [apply I1 | intro i2].
        apply bind_cong; [apply I2 | reflexivity].
      + rewrite inl_SMacroCall, same, inl_SMacroCall. case (find_macro name ms'); [intro m | reflexivity].
        case (zip_env _ _); [intro e' | reflexivity]. apply bind_cong; [apply I2 | reflexivity].
    - intros c ss k. destruct ss as [|s r]; [reflexivity|]. rewrite 2 inl_SCons.
      apply bind_cong; [apply I1 | intro a]. apply bind_cong; [apply I2 | reflexivity].
    - intros c el k. destruct el as [|neg cs body r]; [reflexivity|]. rewrite 2 inl_ECons.
      apply bind_cong; [apply I2 | intro b]. apply bind_cong; [apply I3 | reflexivity].
    - intros c o k. destruct o as [|b]; [reflexivity|]. rewrite 2 inl_OSome. apply bind_cong; [apply I2 | reflexivity].
    - intros c cs k. destruct cs as [|h body r|body r]; [reflexivity| |].
      + rewrite 2 inl_KCase. apply bind_cong; [apply I2 | intro b]. apply bind_cong; [apply I5 | reflexivity].
      + rewrite 2 inl_KDefault. apply bind_cong; [apply I2 | intro b]. apply bind_cong; [apply I5 | reflexivity].
  Qed.

  Lemma inl_routines_same rs : forall k, inl_routines ms rs k = inl_routines ms' rs k.
  Proof.
    induction rs as [|r rs IH]; intro k; [reflexivity|]. rewrite 2 inl_routines_cons.
    apply bind_cong; [apply inl_same | intro b]. apply bind_cong; [apply IH | reflexivity].
  Qed.
End SameLookup.

(* a program means the same whatever the order of its macro definitions *)
Theorem inline_order_independent ms ms' rs :
  NoDup (map m_name ms) -> Permutation ms ms' -> inline (mkProg ms rs) = inline (mkProg ms' rs).
Proof.
  intros Hnd Hp. unfold inline. cbn [p_macros p_routines].
  rewrite (inl_routines_same ms ms' (find_macro_perm ms ms' Hp Hnd)). reflexivity.
Qed.

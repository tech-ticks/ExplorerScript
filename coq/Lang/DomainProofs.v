(* [tr_answers] and [cfg_of_prog_is_ok] (Lang/StaticProofs.v) in Prop: cfg_of_prog answers exactly for the programs that
   are well scoped and whose parts have events. *)
From ES Require Import Base Lang.SrcSem Lang.Static Lang.StaticProofs Lang.Domain.

Definition WS e := ws_stmt (e_perf e) (scope_L e) (scope_sw e) (scope_ct e) (scope_bl e).

Lemma is_ok_iff {A} (x : result A) : is_ok x = true <-> exists r, x = Ok r.
Proof. destruct x as [a|]; split; [exists a; reflexivity | reflexivity | discriminate | intros [r [=]]]. Qed.

Lemma answers_has {A} (m : M A) w v P st : answers m (w && v) P -> w = true -> v = true -> exists r, m st = Ok r.
Proof. intros H -> ->. apply is_ok_iff, (answers_is_ok m _ P st H). Qed.

Lemma scoped_has_meaning :
  (forall s e k st, ws_stmt (e_perf e) (scope_L e) (scope_sw e) (scope_ct e) (scope_bl e) s = true ->
     ev_stmt (e_perf e) s = true -> exists r, tr_stmt e s k st = Ok r) /\
  (forall ss e k st, ws_stmts (e_perf e) (scope_L e) (scope_sw e) (scope_ct e) (scope_bl e) ss = true ->
     ev_stmts (e_perf e) ss = true -> exists r, tr_stmts e ss k st = Ok r) /\
  (forall el e else_e k st, ws_elifs (e_perf e) (scope_L e) (scope_sw e) (scope_ct e) (scope_bl e) el = true ->
     ev_elifs (e_perf e) el = true -> exists r, tr_elifs e el else_e k st = Ok r) /\
  (forall o e k st, ws_ostmts (e_perf e) (scope_L e) (scope_sw e) (scope_ct e) (scope_bl e) o = true ->
     ev_ostmts (e_perf e) o = true -> exists r, tr_ostmts e o k st = Ok r) /\
  (forall cs e k st, ws_cases (e_perf e) (scope_L e) (scope_sw e) (scope_ct e) (scope_bl e) cs = true ->
     ev_cases (e_perf e) cs = true -> exists r, tr_cases e cs k st = Ok r).
Proof.
  destruct tr_answers as (H1 & H2 & H3 & H4 & H5).
  repeat split; intros; eapply answers_has; eauto.
Qed.

(* the domain of the specification, exactly *)
Theorem meaning_iff perf p :
  (exists r, cfg_of_prog perf p = Ok r) <-> well_scoped perf p = true /\ events_ok perf p = true.
Proof. rewrite <- is_ok_iff, cfg_of_prog_is_ok. apply andb_true_iff. Qed.

Corollary well_scoped_has_meaning perf p :
  well_scoped perf p = true -> events_ok perf p = true -> exists r, cfg_of_prog perf p = Ok r.
Proof. intros Hw He. apply meaning_iff. split; assumption. Qed.

Corollary meaning_implies_events_ok perf p r : cfg_of_prog perf p = Ok r -> events_ok perf p = true.
Proof. intro H. apply (meaning_iff perf p). exists r. exact H. Qed.

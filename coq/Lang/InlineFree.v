(* What it means that the inliner returns something ([inl_yields], [inline_yields]): what it was given held no call of
   those that fail, and what it returns holds no macro call and no macro definition - the meaning of a program with
   macros is the meaning of a program without. *)
From ES Require Import Base Lang.Ast Lang.Inline Lang.InlineProofs Lang.MacroStatic.

Definition any_call (_ : string) (_ : nat) : bool := true.

Section Eqs.
Variable bad : string -> nat -> bool.
Lemma hc_cons s r : has_calls bad (SCons s r) = has_call bad s || has_calls bad r. Proof. reflexivity. Qed.
Lemma hc_one s : has_calls bad (SCons s SNil) = has_call bad s. Proof. rewrite hc_cons. apply orb_false_r. Qed.
Lemma hc_if n cs b el els :
  has_call bad (SIf n cs b el els) = has_calls bad b || has_call_elifs bad el || has_call_ostmts bad els.
Proof. reflexivity. Qed.
Lemma hc_switch h cs : has_call bad (SSwitch h cs) = has_call_cases bad cs. Proof. reflexivity. Qed.
Lemma hc_forever b : has_call bad (SForever b) = has_calls bad b. Proof. reflexivity. Qed.
Lemma hc_while n c b : has_call bad (SWhile n c b) = has_calls bad b. Proof. reflexivity. Qed.
Lemma hc_for i c d b : has_call bad (SFor i c d b) = has_call bad i || has_call bad d || has_calls bad b.
Proof. reflexivity. Qed.
Lemma hce_cons n cs b r : has_call_elifs bad (ECons n cs b r) = has_calls bad b || has_call_elifs bad r.
Proof. reflexivity. Qed.
Lemma hco_some b : has_call_ostmts bad (OSome b) = has_calls bad b. Proof. reflexivity. Qed.
Lemma hcc_case h b r : has_call_cases bad (KCase h b r) = has_calls bad b || has_call_cases bad r.
Proof. reflexivity. Qed.
Lemma hcc_default b r : has_call_cases bad (KDefault b r) = has_calls bad b || has_call_cases bad r.
Proof. reflexivity. Qed.
End Eqs.

Lemma has_calls_sapp bad a : forall b, has_calls bad (sapp a b) = has_calls bad a || has_calls bad b.
Proof.
  induction a as [|s r IH]; intro b; [reflexivity|].
  cbn [sapp]. rewrite !hc_cons, IH, orb_assoc. reflexivity.
Qed.

Definition yields {A} (r : result A) (P : A -> Prop) : Prop := match r with Ok a => P a | Err _ => True end.

Lemma yields_bind {A B} (r : result A) (f : A -> result B) (P : A -> Prop) (Q : B -> Prop) :
  yields r P -> (forall a, P a -> yields (f a) Q) -> yields (bind r f) Q.
Proof. destruct r as [a|]; [intros Ha H; exact (H a Ha) | trivial]. Qed.

Lemma for_header_calls bad e cd i1 i2 b : yields (for_header e cd i1 i2 b)
  (fun r => has_calls bad (fst r) = has_calls bad i1 || has_calls bad i2 || has_calls bad (fst b)).
Proof.
  destruct i1 as [|a [|? ?]]; try exact I. destruct i2 as [|d [|? ?]]; try exact I.
  cbn [for_header yields fst]. rewrite !hc_one. apply hc_for.
Qed.

(* a run that fails where [b] returns only where [b] is false, and the other way round *)
Lemma yields_and {A} (r : result A) (b : bool) (P : A -> Prop) :
  (b = true -> is_err r = true) -> yields r P -> yields r (fun a => b = false /\ P a).
Proof.
  destruct r; [|trivial]. intros Hb H. split; [destruct b; [discriminate (Hb eq_refl) | reflexivity] | exact H].
Qed.

Lemma yields_false_err {A} (r : result A) (b : bool) (P : A -> Prop) :
  yields r (fun a => b = false /\ P a) -> b = true -> is_err r = true.
Proof. destruct r; [intros [-> _] H; discriminate H | reflexivity]. Qed.

Section Yields.
Variable ms : list macro_def.
Variables bad out : string -> nat -> bool.

(* What it means that the inliner returns something: its input held no call of those that fail, and what it returns
   holds no call at all (none that any [out] picks).  By induction on the fuel, the five classes together; a case
   rewrites with the one-step equation of the inliner and goes through its binds part by part ([yields_bind]), the
   equations of [has_call] putting the parts together. *)
Lemma inl_yields : forall f,
  (forall f' c k n a, f' <= f -> bad n (length a) = true -> is_err (inl_stmt f' ms c (SMacroCall n a) k) = true) ->
  (forall c s k, yields (inl_stmt f ms c s k) (fun r => has_call bad s = false /\ has_calls out (fst r) = false)) /\
  (forall c ss k, yields (inl_stmts f ms c ss k) (fun r => has_calls bad ss = false /\ has_calls out (fst r) = false)) /\
  (forall c el k, yields (inl_elifs f ms c el k)
     (fun r => has_call_elifs bad el = false /\ has_call_elifs out (fst r) = false)) /\
  (forall c o k, yields (inl_ostmts f ms c o k)
     (fun r => has_call_ostmts bad o = false /\ has_call_ostmts out (fst r) = false)) /\
  (forall c cs k, yields (inl_cases f ms c cs k)
     (fun r => has_call_cases bad cs = false /\ has_call_cases out (fst r) = false)).
Proof.
  induction f as [|f IH]; intro CF; [repeat split; exact I|].
  destruct IH as (I1 & I2 & I3 & I4 & I5); [intros f' c k n a Hle; apply CF, le_S, Hle|]. repeat split.
  - intros c s k. destruct s as [ | | | |ctl| |kind target inner| | | | | |init cd incr body|name args].
    (* an operation, label, jump, call, assignment or message switch is rewritten in place; named by position because
       a [try] over all fourteen spends most of its time failing on the statements with parts *)
    1-4, 6, 10: (split; reflexivity).
    + cbn [inl_stmt]. destruct ctl; try (split; reflexivity). destruct (i_exp c); split; reflexivity.
    + destruct (inl_SWith f ms c kind target inner k) as [inner' ->]. split; reflexivity.
    + rewrite inl_SIf. eapply yields_bind; [apply I2 | intros b [Hb Hb']]. eapply yields_bind; [apply I3 | intros l [Hl Hl']].
      eapply yields_bind; [apply I4 | intros o [Ho Ho']].
      cbn [yields fst]. rewrite hc_if, Hb, Hl, Ho, hc_one, hc_if, Hb', Hl', Ho'. split; reflexivity.
    + rewrite inl_SSwitch. eapply yields_bind; [apply I5 | intros b Hb].
      cbn [yields fst]. rewrite hc_one, 2 hc_switch. exact Hb.
    + rewrite inl_SForever. eapply yields_bind; [apply I2 | intros b Hb].
      cbn [yields fst]. rewrite hc_one, 2 hc_forever. exact Hb.
    + rewrite inl_SWhile. eapply yields_bind; [apply I2 | intros b Hb].
      cbn [yields fst]. rewrite hc_one, 2 hc_while. exact Hb.
    + rewrite inl_SFor. eapply yields_bind; [apply I1 | intros i1 [H1 H1']]. eapply yields_bind; [apply I1 | intros i2 [H2 H2']].
      eapply yields_bind; [apply I2 | intros b [Hb Hb']].
      pose proof (for_header_calls out (i_env c) cd (fst i1) (fst i2) b) as Hr.
      destruct (for_header _ _ _ _ _) as [r|]; [|exact I]. cbn [yields] in *.
      rewrite hc_for, H1, H2, Hb, Hr, H1', H2', Hb'. split; reflexivity.
    + apply yields_and; [apply CF, le_n|]. rewrite inl_SMacroCall. case (find_macro name ms); [intro m | exact I].
      case (zip_env _ _); [intro e' | exact I].
      eapply yields_bind; [apply I2 | intros b [_ Hb]]. cbn [yields fst]. rewrite has_calls_sapp, Hb. reflexivity.
  - intros c ss k. destruct ss as [|s r0]; [split; reflexivity|]. rewrite inl_SCons.
    eapply yields_bind; [apply I1 | intros a [Ha Ha']]. eapply yields_bind; [apply I2 | intros b [Hb Hb']].
    cbn [yields fst]. rewrite hc_cons, Ha, Hb, has_calls_sapp, Ha', Hb'. split; reflexivity.
  - intros c el k. destruct el as [|n cs b r0]; [split; reflexivity|]. rewrite inl_ECons.
    eapply yields_bind; [apply I2 | intros a [Ha Ha']]. eapply yields_bind; [apply I3 | intros b' [Hb Hb']].
    cbn [yields fst]. rewrite 2 hce_cons, Ha, Hb, Ha', Hb'. split; reflexivity.
  - intros c o k. destruct o as [|b]; [split; reflexivity|]. rewrite inl_OSome.
    eapply yields_bind; [apply I2 | intros a Ha]. exact Ha.
  - intros c cs k. destruct cs as [|h b r0|b r0]; [split; reflexivity| |].
    + rewrite inl_KCase. eapply yields_bind; [apply I2 | intros a [Ha Ha']].
      eapply yields_bind; [apply I5 | intros b' [Hb Hb']].
      cbn [yields fst]. rewrite 2 hcc_case, Ha, Hb, Ha', Hb'. split; reflexivity.
    + rewrite inl_KDefault. eapply yields_bind; [apply I2 | intros a [Ha Ha']].
      eapply yields_bind; [apply I5 | intros b' [Hb Hb']].
      cbn [yields fst]. rewrite 2 hcc_default, Ha, Hb, Ha', Hb'. split; reflexivity.
Qed.

Lemma inl_routines_yields rs :
  (forall f c k n a, bad n (length a) = true -> is_err (inl_stmt f ms c (SMacroCall n a) k) = true) ->
  forall k, yields (inl_routines ms rs k)
    (fun rs' => existsb (fun r => has_calls bad (r_body r)) rs = false /\
                existsb (fun r => has_calls out (r_body r)) rs' = false).
Proof.
  intro CF. induction rs as [|r rest IH]; intro k; [split; reflexivity|]. rewrite inl_routines_cons.
  eapply yields_bind; [apply (proj1 (proj2 (inl_yields _ (fun f c k' n a _ => CF f c k' n a)))) | intros b [Hb Hb']].
  eapply yields_bind; [apply IH | intros others [Ho Ho']].
  cbn [yields existsb r_body]. rewrite Hb, Ho, Hb', Ho'. split; reflexivity.
Qed.
End Yields.

(* where [inline] returns a program, the one it was given held no call of those that fail, and the one it returns holds
   no macro definition and no call *)
Theorem inline_yields p bad out :
  (forall f c k n a, bad n (length a) = true -> is_err (inl_stmt f (p_macros p) c (SMacroCall n a) k) = true) ->
  yields (inline p) (fun q => program_has bad p = false /\ p_macros q = [] /\ program_has out q = false).
Proof.
  intro CF. unfold inline. eapply yields_bind; [exact (inl_routines_yields _ bad out _ CF 0) | intros rs [H H']].
  split; [exact H | split; [reflexivity | exact H']].
Qed.

Theorem inline_macro_free p p' : inline p = Ok p' ->
  p_macros p' = [] /\ program_has any_call p' = false.
Proof.
  intro H. pose proof (inline_yields p (fun _ _ => false) any_call) as F. rewrite H in F. apply F. discriminate.
Qed.

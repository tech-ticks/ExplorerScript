(* Properties of the RegexLexer token loop for every rule table and every matcher. *)
From ES Require Import Base Pyg.Engine.

(* a partial result: if there is one, it satisfies P *)
Definition if_some {A} (o : option A) (P : A -> Prop) : Prop := match o with Some x => P x | None => True end.

Lemma if_some_elim {A} (o : option A) (P : A -> Prop) x : o = Some x -> if_some o P -> P x.
Proof. intros -> H. exact H. Qed.

Section Proofs.
  Variable tbl : table.
  Variable matcher : nat -> nat -> option nat.

  Lemma first_match_In rs pos r n : first_match matcher rs pos = Some (r, n) -> In r rs /\ matcher (rid r) pos = Some n.
  Proof.
    induction rs as [|r0 rs IH]; cbn [first_match]; [discriminate|].
    destruct (matcher (rid r0) pos) as [n0|] eqn:E.
    - intros [= <- <-]. split; [left; reflexivity | exact E].
    - intro H. destruct (IH H) as [Hin Hm]. split; [right; exact Hin | exact Hm].
  Qed.

  Lemma rules_of_ok st r : table_ok tbl = true -> In r (rules_of tbl st) -> rule_ok tbl r = true.
  Proof.
    unfold table_ok, rules_of. intro H. apply andb_prop in H as [_ H].
    destruct (assoc_string st tbl) as [rs|] eqn:E; [|intros []].
    intro Hin. apply (forallb_In _ _ _ (forallb_In _ _ _ H (assoc_string_In _ _ _ E)) Hin).
  Qed.

  (* induction along the computation of [lex]: out of fuel, the end of the text, a match, a character no rule matches;
     [o] is what the rest of the loop returns *)
  Lemma lex_ind (R : nat -> stack -> text -> nat -> option (list token) -> Prop) :
    (forall s rest pos, R 0 s rest pos None) ->
    (forall f s pos, first_match matcher (rules_of tbl (top s)) pos = None -> R (S f) s [] pos (Some [])) ->
    (forall f s rest pos r n o, first_match matcher (rules_of tbl (top s)) pos = Some (r, n) ->
       R f (apply_trans s (tr r)) (skipn n rest) (pos + n) o ->
       R (S f) s rest pos (option_map (app (match act r with ATok ty => [(ty, firstn n rest)] | AOther => [] end)) o)) ->
    (forall f s c rest pos o, first_match matcher (rules_of tbl (top s)) pos = None ->
       R f (if N.eqb c NL then ["root"%string] else s) rest (S pos) o ->
       R (S f) s (c :: rest) pos
         (option_map (cons (if N.eqb c NL then "Token.Text.Whitespace"%string else "Token.Error"%string, [c])) o)) ->
    forall fuel s rest pos, R fuel s rest pos (lex tbl matcher fuel s rest pos).
  Proof.
    intros Hfuel Hend Hmatch Hskip. induction fuel as [|f IH]; intros s rest pos; cbn [lex]; [apply Hfuel|].
    destruct (first_match matcher (rules_of tbl (top s)) pos) as [[r n]|] eqn:F.
    - apply (Hmatch _ _ _ _ _ _ _ F), IH.
    - destruct rest as [|c rest']; [apply Hend, F|].
      specialize (Hskip f s c rest' pos). destruct (N.eqb c NL); apply (Hskip _ F), IH.
  Qed.

  (* nothing is lost: the token texts add up to the input, whatever the matcher answers *)
  Theorem lex_lossless : table_ok tbl = true ->
    forall fuel s rest pos toks, lex tbl matcher fuel s rest pos = Some toks -> concat (map snd toks) = rest.
  Proof.
    (* shown of whatever lex returns, if it returns a result, so that lex_ind applies *)
    intros Hok fuel s rest pos toks H. pattern toks. apply (if_some_elim _ _ _ H).
    apply (lex_ind (fun _ _ rest _ o => if_some o (fun toks => concat (map snd toks) = rest))).
    - intros. exact I.
    - reflexivity.
    - intros _ s0 rest0 pos0 r n [toks0|] F IH; [|exact I]. destruct (first_match_In _ _ _ _ F) as [Hin _].
      pose proof (rules_of_ok _ _ Hok Hin) as Hr. unfold rule_ok in Hr. apply andb_prop in Hr as [Ha _].
      destruct (act r) as [ty|]; [|discriminate]. cbn [if_some option_map app map concat snd] in IH |- *. rewrite IH.
      apply firstn_skipn.
    - intros _ s0 c rest0 pos0 [toks0|] _ IH; [|exact I]. cbn [if_some option_map map concat snd app] in IH |- *.
      rewrite IH. reflexivity.
  Qed.

  (* the loop terminates: no rule matches the empty string, and matches stay inside the text *)
  Variable L : nat.                                  (* length of the whole text *)
  Hypothesis match_nonempty : forall r p n, matcher r p = Some n -> 0 < n.
  Hypothesis match_inside : forall r p n, matcher r p = Some n -> p + n <= L.

  Theorem lex_total : forall fuel s rest pos,
    pos + length rest = L -> length rest < fuel -> exists toks, lex tbl matcher fuel s rest pos = Some toks.
  Proof.
    apply (lex_ind (fun fuel s rest pos o => pos + length rest = L -> length rest < fuel -> exists toks, o = Some toks)).
    - intros s rest pos _ Hf. destruct (Nat.nlt_0_r _ Hf).
    - intros. eexists. reflexivity.
    - (* a match is not empty and stays inside the text: less text is left, and less fuel is enough for it *)
      intros f s rest pos r n o F IH HL Hf. destruct (first_match_In _ _ _ _ F) as [_ Hm].
      pose proof (match_nonempty _ _ _ Hm). pose proof (match_inside _ _ _ Hm). rewrite skipn_length in IH.
      destruct IH as [toks ->]; [lia | lia |]. eexists. reflexivity.
    - intros f s c rest pos o _ IH HL Hf. cbn [length] in HL, Hf.
      destruct IH as [toks ->]; [lia | lia |]. eexists. reflexivity.
  Qed.

  (* no error token: in every state some rule matches at every position inside the text.
     [good] is what [covered] needs of [top s] *)
  Definition has (st : string) : Prop := assoc_string st tbl <> None.
  Definition good (s : stack) : Prop := s <> [] /\ Forall has s.

  Hypothesis covered : forall st pos, has st -> pos < L -> first_match matcher (rules_of tbl st) pos <> None.

  Lemma root_good : table_ok tbl = true -> good ["root"%string].
  Proof.
    unfold table_ok, good, has. intro H. apply andb_prop in H as [H _].
    split; [discriminate|]. constructor; [|constructor]. destruct (assoc_string "root" tbl); discriminate.
  Qed.

  Lemma keep_last_good s : good s -> good (keep_last s).
  Proof.
    intros [Hne Hall]. induction s as [|x s IH]; [contradiction|].
    destruct s as [|y s']; cbn [keep_last]; [split; assumption|].
    apply IH; [discriminate | exact (Forall_inv_tail Hall)].
  Qed.

  Lemma skipn_good n s : n < length s -> good s -> good (skipn n s).
  Proof.
    intros Hn [Hne Hall]. split.
    - intro E. apply (f_equal (@length _)) in E. rewrite skipn_length in E. cbn [length] in E. lia.
    - rewrite <- (firstn_skipn n s) in Hall. apply Forall_app in Hall. apply Hall.
  Qed.

  Lemma apply_item_good s i : (match i with IState st => has st | _ => True end) -> good s -> good (apply_item s i).
  Proof.
    intros Hi [Hne Hall]. destruct i as [st| |]; cbn [apply_item].
    - split; [discriminate | constructor; assumption].
    - destruct s as [|x [|y r]]; try (split; assumption). split; [discriminate | exact (Forall_inv_tail Hall)].
    - destruct s as [|x r]; [contradiction|]. split; [discriminate | constructor; [exact (Forall_inv Hall) | exact Hall]].
  Qed.

  Lemma apply_trans_good s r st : table_ok tbl = true -> In r (rules_of tbl st) -> good s -> good (apply_trans s (tr r)).
  Proof.
    intros Hok Hin Hg. pose proof (rules_of_ok _ _ Hok Hin) as Hr. unfold rule_ok in Hr.
    apply andb_prop in Hr as [_ Ht].
    destruct (tr r) as [|items|n|]; cbn [apply_trans].
    - exact Hg.
    - revert Hg. apply fold_left_inv. intros s' i Hi. apply apply_item_good.
      apply (forallb_In _ _ _ Ht) in Hi. destruct i as [st'| |]; [|exact I|exact I]. unfold has. destruct (assoc_string st' tbl); discriminate.
    - destruct (Nat.leb (length s) n) eqn:E; [apply keep_last_good; exact Hg|].
      apply skipn_good; [apply Nat.leb_gt; exact E | exact Hg].
    - exact (apply_item_good s IPushSame I Hg).
  Qed.

  Definition rule_types : list string :=
    flat_map (fun sr => flat_map (fun r => match act r with ATok ty => [ty] | AOther => [] end) (snd sr)) tbl.

  Lemma rule_type_In st r ty : In r (rules_of tbl st) -> act r = ATok ty -> In ty rule_types.
  Proof.
    unfold rules_of, rule_types. destruct (assoc_string st tbl) as [rs|] eqn:E; [|intros []].
    intros Hin Ha. apply in_flat_map. exists (st, rs). split.
    - apply assoc_string_In, E.
    - cbn [snd]. apply in_flat_map. exists r. split; [exact Hin|]. rewrite Ha. left. reflexivity.
  Qed.

  (* every emitted token comes from a rule: in particular no "Error" token unless a rule is typed so *)
  Theorem lex_tokens_from_rules : table_ok tbl = true ->
    forall fuel s rest pos toks, pos + length rest = L -> good s ->
      lex tbl matcher fuel s rest pos = Some toks -> forall tk, In tk toks -> In (fst tk) rule_types.
  Proof.
    intros Hok fuel s rest pos toks HL Hg H. revert HL Hg. pattern toks. apply (if_some_elim _ _ _ H).
    apply (lex_ind (fun _ s rest pos o => if_some o (fun toks =>
             pos + length rest = L -> good s -> forall tk, In tk toks -> In (fst tk) rule_types))).
    - intros. exact I.
    - intros _ _ _ _ _ _ tk [].
    - intros _ s0 rest0 pos0 r n [toks0|] F IH; [|exact I]. intros HL Hg tk Htk.
      destruct (first_match_In _ _ _ _ F) as [Hin Hm].
      pose proof (match_inside _ _ _ Hm) as Hins. apply in_app_or in Htk. destruct Htk as [Htk|Htk].
      + destruct (act r) as [ty|] eqn:Ha; [|contradiction]. destruct Htk as [<-|[]]. apply (rule_type_In _ _ _ Hin Ha).
      + apply IH; [rewrite skipn_length; lia | apply (apply_trans_good _ _ _ Hok Hin Hg) | exact Htk].
    - intros _ s0 c rest0 pos0 [toks0|] F _; [|exact I]. intros HL [Hne Hall]. exfalso.
      apply (covered (top s0) pos0); [|cbn [length] in HL; lia | exact F].
      destruct s0 as [|x r]; [contradiction | exact (Forall_inv Hall)].
  Qed.
End Proofs.

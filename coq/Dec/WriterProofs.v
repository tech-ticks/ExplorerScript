(* The line counter stays in step with the text, and an entry recorded before a statement points at it. *)
From ES Require Import Base Dec.Writer.

Lemma count_lf_app a b : count_lf (a ++ b) = count_lf a + count_lf b.
Proof. unfold count_lf. rewrite filter_app, app_length. reflexivity. Qed.

Lemma count_lf_cons c t : count_lf (c :: t) = (if N.eqb LF c then 1 else 0) + count_lf t.
Proof. unfold count_lf. cbn [filter]. destruct (N.eqb LF c); reflexivity. Qed.

Lemma count_lf_spaces n : count_lf (spaces n) = 0.
Proof. induction n as [|n IH]; [reflexivity | exact IH]. Qed.

Definition winv (w : wstate) : Prop := line w = S (count_lf (out w)).

Lemma w_line_inv w : winv w -> winv (w_line w).
Proof.
  unfold winv, w_line. cbn [out line]. intro H. rewrite count_lf_app, count_lf_cons, N.eqb_refl, count_lf_spaces. lia.
Qed.

Lemma wstep_inv w o : winv w -> winv (wstep w o).
Proof.
  intro H. destruct o as [|s nl| | |off cur]; cbn [wstep].
  - apply w_line_inv. exact H.
  - unfold winv. cbn [out line]. rewrite count_lf_app.
    assert (H1 : winv (if nl then w_line w else w)) by (destruct nl; [apply w_line_inv|]; exact H).
    unfold winv in H1. lia.
  - exact H.
  - exact H.
  - exact H.
Qed.

(* the line counter always equals 1 + the number of line feeds written, whatever is written *)
Theorem line_counter_in_step ops prefix : winv (wrun ops (winit prefix)).
Proof. apply (fold_left_inv winv); [intros w o _; apply wstep_inv | reflexivity]. Qed.

Lemma skip_lines_0 t : skip_lines t 0 = Some t.
Proof. destruct t; reflexivity. Qed.

Lemma skip_lines_app a : forall rest, skip_lines (a ++ LF :: rest) (S (count_lf a)) = Some rest.
Proof.
  induction a as [|c a IH]; intro rest; [exact (skip_lines_0 rest)|].
  cbn [app]. rewrite count_lf_cons. cbn [skip_lines]. rewrite (N.eqb_sym c LF). destruct (N.eqb LF c); apply IH.
Qed.

Lemma skip_cols_spaces n rest : skip_cols (spaces n ++ rest) n = Some rest.
Proof. induction n as [|n IH]; [reflexivity|]. cbn [spaces repeat app skip_cols]. exact IH. Qed.

(* an entry recorded (not "in the current line") directly before a statement written on a new line gives the
   0-based line and the column at which that statement begins - and whatever is written later stays behind it *)
Theorem entry_points_at_statement w off s later :
  winv w ->
  let w' := wstep (wstep w (WAdd off false)) (WStmnt s true) in
  exists ln col, last (entries w') (0%Z, 0, 0) = (off, ln, col) /\
                 locate (out w' ++ later) ln col = Some (s ++ later).
Proof.
  intro H. cbn [wstep w_line out line ind entries].
  exists (line w), (ind w * INDENT_WIDTH). split.
  - rewrite last_last. reflexivity.
  - unfold locate. rewrite H, <- !app_assoc, <- app_comm_cons, skip_lines_app. apply skip_cols_spaces.
Qed.

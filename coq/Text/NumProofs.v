(* Number literals: every spelling of an integer reads as that integer; printed position-mark arguments and
   fixed-point values read back. *)
From Coq Require Import ZifyBool.
From ES Require Import Base Text.Num.

Local Open Scope N_scope.

Lemma digit_val_char up d : d < 16 -> digit_val (digit_char up d) = Some d.
Proof.
  intro H.
  (* the table of the sixteen digits is checked by evaluation, and d is in the table *)
  assert (T : forallb (fun k => match digit_val (digit_char up k) with Some x => x =? k | None => false end)
                      (map N.of_nat (seq 0 16)) = true) by (destruct up; vm_compute; reflexivity).
  assert (I : In d (map N.of_nat (seq 0 16))) by (rewrite <- (N2Nat.id d); apply in_map, in_seq; lia).
  pose proof (forallb_In _ _ _ T I) as E. cbv beta in E.
  destruct (digit_val (digit_char up d)) as [x|]; [apply f_equal, N.eqb_eq, E | discriminate E].
Qed.

Lemma digit_char_dec up d : d < 10 -> is_dec_digit (digit_char up d) = true.
Proof. intro H. unfold digit_char. rewrite (proj2 (N.ltb_lt d 10) H). unfold is_dec_digit. lia. Qed.

Lemma dec_digit_val c : is_dec_digit c = true -> exists d, digit_val c = Some d /\ d < 10 /\ (d =? 0) = (c =? ZERO).
Proof. unfold is_dec_digit, digit_val, ZERO. intro H. rewrite H. exists (c - 48). split; [reflexivity | lia]. Qed.

(* fold_left (step b) ds acc is the number written acc followed by ds in base b, most significant digit first *)
Definition step (b a d : N) : N := a * b + d.

Lemma read_digits_from_app b s1 : forall acc s2,
  read_digits_from b acc (s1 ++ s2) =
  match read_digits_from b acc s1 with Some a => read_digits_from b a s2 | None => None end.
Proof.
  induction s1 as [|c r IH]; intros acc s2; cbn [app read_digits_from]; [reflexivity|].
  destruct (digit_val c) as [d|]; [|reflexivity]. destruct (d <? b); [apply IH | reflexivity].
Qed.

Lemma read_spelled b up ds : b <= 16 -> Forall (fun d => d < b) ds ->
  forall acc, read_digits_from b acc (map (digit_char up) ds) = Some (fold_left (step b) ds acc).
Proof.
  intros Hb H. induction H as [|d r Hd Hr IH]; intro acc; cbn [map read_digits_from fold_left]; [reflexivity|].
  rewrite digit_val_char by (eapply N.lt_le_trans; eassumption). apply N.ltb_lt in Hd. rewrite Hd. apply IH.
Qed.

Lemma lstrip0_zeros k w : lstrip0 (repeat ZERO k ++ w) = lstrip0 w.
Proof. induction k as [|k IH]; [reflexivity | exact IH]. Qed.

Lemma read_lstrip0 b w : 0 < b -> read_digits_from b 0 (lstrip0 w) = read_digits_from b 0 w.
Proof.
  intro Hb. apply N.ltb_lt in Hb. induction w as [|c r IH]; [reflexivity|]. cbn [lstrip0].
  destruct (N.eqb_spec c ZERO) as [->|_]; [|reflexivity].
  rewrite IH. cbn [read_digits_from]. change (digit_val ZERO) with (Some 0). cbv beta iota. rewrite Hb. reflexivity.
Qed.

Lemma read_zeros b k s : 0 < b -> read_digits_from b 0 (repeat ZERO k ++ s) = read_digits_from b 0 s.
Proof. intro Hb. rewrite <- read_lstrip0, lstrip0_zeros, read_lstrip0 by exact Hb. reflexivity. Qed.

Lemma read_digits_Some b s n : s <> [] -> read_digits_from b 0 s = Some n -> read_digits b s = Some n.
Proof. destruct s; [contradiction | intros _ H; exact H]. Qed.

Lemma div_bound b f n : 2 <= b -> n < 2 ^ N.of_nat (S f) -> n / b < 2 ^ N.of_nat f.
Proof.
  intros Hb Hn. rewrite Nat2N.inj_succ, N.pow_succ_r' in Hn. apply N.div_lt_upper_bound; [lia|].
  apply (N.lt_le_trans _ _ _ Hn), N.mul_le_mono_r, Hb.
Qed.

Lemma to_digits_fuel_value b : 2 <= b -> forall f n acc,
  n < 2 ^ N.of_nat f ->
  fold_left (step b) (to_digits_fuel b f n acc) 0 = fold_left (step b) acc n.
Proof.
  intros Hb f. induction f as [|f IH]; intros n acc Hn.
  - apply N.lt_1_r in Hn. subst n. reflexivity.
  - cbn [to_digits_fuel]. destruct (n <? b) eqn:E; [reflexivity|].
    rewrite IH by (apply div_bound; assumption). cbn [fold_left]. f_equal.
    unfold step. rewrite N.mul_comm. symmetry. apply N.div_mod'.
Qed.

Lemma to_digits_fuel_lt b : 2 <= b -> forall f n acc,
  Forall (fun d => d < b) acc -> Forall (fun d => d < b) (to_digits_fuel b f n acc).
Proof.
  intros Hb f. induction f as [|f IH]; intros n acc H; cbn [to_digits_fuel]; [exact H|].
  destruct (n <? b) eqn:E.
  - constructor; [apply N.ltb_lt; exact E | exact H].
  - apply IH. constructor; [apply N.mod_lt; lia | exact H].
Qed.

Lemma to_digits_fuel_head b : 2 <= b -> forall f n acc,
  0 < n -> n < 2 ^ N.of_nat f ->
  exists d r, to_digits_fuel b f n acc = d :: r /\ 0 < d.
Proof.
  intros Hb f. induction f as [|f IH]; intros n acc Hpos Hn.
  - apply N.lt_1_r in Hn. lia.
  - cbn [to_digits_fuel]. destruct (n <? b) eqn:E.
    + exists n, acc. split; [reflexivity | exact Hpos].
    + apply IH; [apply N.div_str_pos; lia | apply div_bound; assumption].
Qed.

Lemma size_bound n : n < 2 ^ N.of_nat (S (N.to_nat (N.size n))).
Proof.
  rewrite Nat2N.inj_succ, N2Nat.id, N.pow_succ_r'. pose proof (N.size_gt n). lia.
Qed.

Lemma to_digits_value b n : 2 <= b -> fold_left (step b) (to_digits b n) 0 = n.
Proof. intro Hb. apply (to_digits_fuel_value b Hb _ n []), size_bound. Qed.

Lemma to_digits_lt b n : 2 <= b -> Forall (fun d => d < b) (to_digits b n).
Proof. intro Hb. apply to_digits_fuel_lt; [exact Hb | constructor]. Qed.

Lemma to_digits_zero b : 2 <= b -> to_digits b 0 = [0].
Proof. intro Hb. unfold to_digits. cbn [N.size N.to_nat to_digits_fuel]. replace (0 <? b) with true by lia. reflexivity. Qed.

Lemma to_digits_head b n : 2 <= b -> 0 < n -> exists d r, to_digits b n = d :: r /\ 0 < d < b.
Proof.
  intros Hb Hn. destruct (to_digits_fuel_head b Hb _ n [] Hn (size_bound n)) as (d & r & E & Hd).
  exists d, r. pose proof (to_digits_lt b n Hb) as F. unfold to_digits in F. rewrite E in F.
  split; [exact E | split; [exact Hd | exact (Forall_inv F)]].
Qed.

Lemma read_spell_nat b up n : 2 <= b <= 16 -> read_digits_from b 0 (spell_nat b up n) = Some n.
Proof.
  intros [Hlo Hhi]. unfold spell_nat.
  rewrite (read_spelled b up _ Hhi (to_digits_lt b n Hlo)), to_digits_value by exact Hlo. reflexivity.
Qed.

Lemma spell_nat_zero b up : 2 <= b -> spell_nat b up 0 = [ZERO].
Proof. intro Hb. unfold spell_nat. rewrite to_digits_zero by exact Hb. reflexivity. Qed.

Lemma dec_radix : 2 <= 10 <= 16.
Proof. lia. Qed.

Lemma spell_nat_dec_chars up n : forallb is_dec_digit (spell_nat 10 up n) = true.
Proof.
  unfold spell_nat. pose proof (to_digits_lt 10 n (proj1 dec_radix)) as F.
  induction F as [|d r Hd _ IH]; [reflexivity|]. cbn [map forallb]. rewrite IH, (digit_char_dec up d Hd). reflexivity.
Qed.

Lemma spell_nat_head b up n : 2 <= b <= 16 -> 0 < n -> exists c r, spell_nat b up n = c :: r /\ (c =? ZERO) = false.
Proof.
  intros [Hlo Hhi] Hn. destruct (to_digits_head b n Hlo Hn) as (d & r & E & H1 & H2).
  unfold spell_nat. rewrite E. cbn [map]. eexists _, _. split; [reflexivity|].
  (* the character 0 has the value 0, and d is not 0 *)
  apply N.eqb_neq. intro Ec. pose proof (digit_val_char up d (N.lt_le_trans _ _ _ H2 Hhi)) as V. rewrite Ec in V.
  injection V as <-. exact (N.lt_irrefl _ H1).
Qed.

Lemma spell_nat_nonempty b up n : 2 <= b -> spell_nat b up n <> [].
Proof.
  intro Hb. destruct (N.eq_dec n 0) as [->|Hn]; [rewrite spell_nat_zero by exact Hb; discriminate|].
  destruct (to_digits_head b n Hb (proj1 (N.neq_0_lt_0 n) Hn)) as (d & r & E & _). unfold spell_nat. rewrite E. discriminate.
Qed.

Lemma read_digits_spell_nat b up k n : 2 <= b <= 16 -> read_digits b (repeat ZERO k ++ spell_nat b up n) = Some n.
Proof.
  intro Hb. apply read_digits_Some.
  - intro E. apply app_eq_nil in E. exact (spell_nat_nonempty b up n (proj1 Hb) (proj2 E)).
  - rewrite read_zeros by lia. apply read_spell_nat, Hb.
Qed.

(* read_int is read_signed read_nat_token, read_dec_signed is read_signed (read_digits 10) *)
Definition read_signed (rd : text -> option N) (s : text) : option Z :=
  match s with
  | [] => None
  | c :: r => if c =? MINUS then option_map (fun n => (- Z.of_N n)%Z) (rd r) else option_map Z.of_N (rd s)
  end.

Lemma read_signed_sign rd (neg : bool) s n : rd [] = None -> (forall r, rd (MINUS :: r) = None) -> rd s = Some n ->
  read_signed rd ((if neg then [MINUS] else []) ++ s) = Some (signed neg n).
Proof.
  intros He Hm H. destruct neg; cbn [app]; unfold read_signed.
  - rewrite N.eqb_refl, H. reflexivity.
  - destruct s as [|c r]; [congruence|]. destruct (N.eqb_spec c MINUS) as [->|_]; [|rewrite H; reflexivity].
    rewrite Hm in H. discriminate H.
Qed.

Lemma read_int_sign (neg : bool) s n : read_nat_token s = Some n ->
  read_int ((if neg then [MINUS] else []) ++ s) = Some (signed neg n).
Proof. apply (read_signed_sign read_nat_token); reflexivity. Qed.

Lemma read_dec_signed_sign (neg : bool) s n : read_digits 10 s = Some n ->
  read_dec_signed ((if neg then [MINUS] else []) ++ s) = Some (signed neg n).
Proof. apply (read_signed_sign (read_digits 10)); reflexivity. Qed.

Lemma signed_abs z : signed (z <? 0)%Z (Z.abs_N z) = z.
Proof. destruct z; reflexivity. Qed.

Lemma read_nat_token_dec up n : read_nat_token (spell_nat 10 up n) = Some n.
Proof.
  destruct (N.eq_dec n 0) as [->|Hn]; [rewrite spell_nat_zero by apply dec_radix; reflexivity|].
  pose proof (read_digits_spell_nat 10 up 0 n dec_radix) as R.
  destruct (spell_nat_head 10 up n dec_radix (proj1 (N.neq_0_lt_0 n) Hn)) as (c & r & E & Hc). cbn [repeat app] in R. rewrite E in *.
  unfold read_nat_token. rewrite Hc. exact R.
Qed.

Theorem read_int_spell_dec z : read_int (spell_dec z) = Some z.
Proof. unfold spell_dec. rewrite (read_int_sign _ _ _ (read_nat_token_dec false _)), signed_abs. reflexivity. Qed.

Definition radix_ok (b : N) : Prop := b = 2 \/ b = 8 \/ b = 16.

Lemma radix_letter_ok b up : radix_ok b -> radix_of_letter (radix_letter b up) = Some b.
Proof. intros [-> | [-> | ->]]; destruct up; reflexivity. Qed.

Lemma read_nat_token_radix b upp upd k n : radix_ok b ->
  read_nat_token ([ZERO; radix_letter b upp] ++ repeat ZERO k ++ spell_nat b upd n) = Some n.
Proof.
  intro Hb. cbn [app read_nat_token]. rewrite N.eqb_refl, radix_letter_ok by exact Hb.
  apply read_digits_spell_nat. destruct Hb as [-> | [-> | ->]]; lia.
Qed.

Lemma read_nat_token_zeros k : read_nat_token (repeat ZERO (S k)) = Some 0.
Proof.
  destruct k as [|k]; [reflexivity|]. cbn [repeat read_nat_token]. rewrite N.eqb_refl.
  change (radix_of_letter ZERO) with (@None N). cbn [forallb]. rewrite N.eqb_refl, forallb_repeat by reflexivity. reflexivity.
Qed.

(* the spellings of an integer that the token rule INTEGER admits (one case for all digit letters of a number) *)
Inductive spells : text -> Z -> Prop :=
| sp_dec z : spells (spell_dec z) z
| sp_radix b neg upp upd k n : radix_ok b -> spells (spell_radix b neg upp upd k n) (signed neg n)
| sp_zero neg k : spells (spell_zero neg k) 0%Z.

Theorem spellings_read s z : spells s z -> read_int s = Some z.
Proof.
  intros [z' | b neg upp upd k n Hb | neg k].
  - apply read_int_spell_dec.
  - apply read_int_sign, read_nat_token_radix, Hb.
  - unfold spell_zero. rewrite (read_int_sign neg _ _ (read_nat_token_zeros k)). destruct neg; reflexivity.
Qed.

(* all spellings of one integer denote the same parameter *)
Corollary spellings_agree s1 s2 z : spells s1 z -> spells s2 z -> read_int s1 = read_int s2.
Proof. intros H1 H2. rewrite (spellings_read _ _ H1), (spellings_read _ _ H2). reflexivity. Qed.

Lemma split_dot_app s t : ~ In DOT s -> split_dot (s ++ t) = (s ++ fst (split_dot t), snd (split_dot t)).
Proof.
  induction s as [|c r IH]; intro H; cbn [app split_dot]; [destruct (split_dot t); reflexivity|].
  destruct (N.eqb_spec c DOT) as [->|_]; [destruct H; left; reflexivity|].
  rewrite IH by (intro Hr; apply H; right; exact Hr). reflexivity.
Qed.

Lemma split_dot_nodot s t : ~ In DOT s -> split_dot (s ++ DOT :: t) = (s, Some t).
Proof. intro H. rewrite split_dot_app by exact H. cbn [split_dot]. rewrite N.eqb_refl, app_nil_r. reflexivity. Qed.

Lemma split_dot_Some s : forall w f, split_dot s = (w, Some f) -> s = w ++ DOT :: f.
Proof.
  induction s as [|c r IH]; intros w f; cbn [split_dot]; [discriminate|]. destruct (N.eqb_spec c DOT) as [->|_].
  - intros [= <- <-]. reflexivity.
  - destruct (split_dot r) as [w' fo]. intros [= <- ->]. cbn [app]. f_equal. apply IH. reflexivity.
Qed.

Lemma digits_nodot s : forallb is_dec_digit s = true -> ~ In DOT s.
Proof. intros H Hin. discriminate (forallb_In _ _ _ H Hin). Qed.

Lemma signed_nodot (neg : bool) s : ~ In DOT s -> ~ In DOT ((if neg then [MINUS] else []) ++ s).
Proof. destruct neg; [|exact id]. intros H [E|Hin]; [discriminate E | exact (H Hin)]. Qed.

Lemma spell_dec_nodot z : ~ In DOT (spell_dec z).
Proof. apply signed_nodot, digits_nodot, spell_nat_dec_chars. Qed.

Lemma read_dec_signed_spell z : read_dec_signed (spell_dec z) = Some z.
Proof.
  unfold spell_dec. rewrite (read_dec_signed_sign _ _ (Z.abs_N z)), signed_abs; [reflexivity|].
  apply (read_digits_spell_nat 10 false 0 _ dec_radix).
Qed.

Theorem read_print_pos_arg rel off :
  read_pos_arg (print_pos_arg rel off) = Some (rel, if 1 <? off then 2 else 0).
Proof.
  unfold print_pos_arg. destruct (1 <? off); unfold read_pos_arg.
  - rewrite split_dot_nodot by apply spell_dec_nodot. pose proof (read_dec_signed_spell rel) as R.
    destruct (spell_dec rel); [discriminate R | rewrite R; reflexivity].
  - rewrite split_dot_app by apply spell_dec_nodot. cbn [split_dot snd]. rewrite app_nil_r, read_int_spell_dec. reflexivity.
Qed.

Corollary pos_arg_roundtrip rel off : off = 0 \/ off = 2 ->
  read_pos_arg (print_pos_arg rel off) = Some (rel, off).
Proof. intros [-> | ->]; rewrite read_print_pos_arg; reflexivity. Qed.

(* offsets other than 0 and 2 do not survive (the recorded finding for C04) *)
Lemma pos_arg_other_offsets_refuted :
  exists rel off, read_pos_arg (print_pos_arg rel off) <> Some (rel, off).
Proof. exists 0%Z, 1. rewrite read_print_pos_arg. discriminate. Qed.

Lemma rstrip0_head c r x t : rstrip0 (c :: r) = x :: t -> x = c.
Proof.
  cbn [rstrip0]. destruct (rstrip0 r); [destruct (c =? ZERO); [discriminate|]|]; intros [= <- _]; reflexivity.
Qed.

Lemma lstrip0_digits w : forallb is_dec_digit w = true -> forallb is_dec_digit (lstrip0 w) = true.
Proof.
  induction w as [|c r IH]; [reflexivity|]. intro H. cbn [lstrip0]. destruct (c =? ZERO); [|exact H].
  apply IH. apply andb_prop in H. apply H.
Qed.

Lemma read_digits_total s : forallb is_dec_digit s = true -> forall acc, exists n, read_digits_from 10 acc s = Some n.
Proof.
  induction s as [|c r IH]; intros H acc; [exists acc; reflexivity|].
  apply andb_prop in H as [Hc Hr]. destruct (dec_digit_val c Hc) as (d & Ed & El & _).
  cbn [read_digits_from]. apply N.ltb_lt in El. rewrite Ed, El. apply IH. exact Hr.
Qed.

(* the whole part as read_fixed prepares it for int() *)
Definition whole (w : text) : text :=
  match lstrip0 w with
  | [] => [ZERO]
  | _ => if text_eqb (rstrip0 (lstrip0 w)) [MINUS] then [MINUS; ZERO] else lstrip0 w
  end.

Lemma read_fixed_eq s f : ~ In DOT s -> forallb is_dec_digit f = true ->
  read_fixed (s ++ DOT :: f) =
  if text_eqb (whole s) [MINUS; ZERO] then Some ([MINUS; ZERO; DOT] ++ f)
  else option_map (fun z => spell_dec z ++ [DOT] ++ f) (read_dec_signed (whole s)).
Proof. intros Hs Hf. unfold read_fixed. rewrite split_dot_nodot, Hf by exact Hs. reflexivity. Qed.

Lemma whole_pos w : forallb is_dec_digit (lstrip0 w) = true -> whole w = match lstrip0 w with [] => [ZERO] | w1 => w1 end.
Proof.
  intro H. unfold whole. destruct (lstrip0 w) as [|c r]; [reflexivity|].
  rewrite text_eqb_false; [reflexivity|]. intro E. apply rstrip0_head in E. subst c. discriminate H.
Qed.

Lemma whole_neg w : whole (MINUS :: w) = match rstrip0 w with [] => [MINUS; ZERO] | _ => MINUS :: w end.
Proof. unfold whole. change (lstrip0 (MINUS :: w)) with (MINUS :: w). cbn [rstrip0]. destruct (rstrip0 w); reflexivity. Qed.

(* the number read is 0 only if every digit is *)
Lemma read_digits_zero w : forallb is_dec_digit w = true -> forall acc n, read_digits_from 10 acc w = Some n ->
  (n =? 0) = (acc =? 0) && match rstrip0 w with [] => true | _ => false end.
Proof.
  induction w as [|c r IH]; intros H acc n; cbn [read_digits_from rstrip0].
  - intros [= <-]. symmetry. apply andb_true_r.
  - apply andb_prop in H as [Hc Hr]. destruct (dec_digit_val c Hc) as (d & Ed & El & E0). apply N.ltb_lt in El. rewrite Ed, El.
    intro Hn. rewrite (IH Hr _ _ Hn), <- E0.
    (* acc * 10 + d is 0 only if acc and d are *)
    destruct (rstrip0 r); destruct acc, d; reflexivity.
Qed.

(* read_fixed keeps the sign and the fraction of a DECIMAL token and respells the whole part: of its digits only
   the value reaches the result (the first hypothesis follows from the third; callers have both at hand) *)
Theorem read_fixed_decimal (neg : bool) w f n :
  forallb is_dec_digit w = true -> forallb is_dec_digit f = true -> read_digits_from 10 0 w = Some n ->
  read_fixed ((if neg then [MINUS] else []) ++ w ++ DOT :: f) =
  Some ((if neg then [MINUS] else []) ++ spell_nat 10 false n ++ DOT :: f).
Proof.
  intros Hw Hf Hn. rewrite app_assoc, read_fixed_eq by (try apply signed_nodot, digits_nodot; assumption).
  pose proof (read_dec_signed_sign neg) as R. destruct neg; cbn [app] in *.
  - (* int() gets the digits with their zeros, unless they are all zeros; otherwise the value is negative and printed
       with its sign *)
    rewrite whole_neg. pose proof (read_digits_zero w Hw 0 n Hn) as Hz. destruct (rstrip0 w) as [|c r] eqn:E.
    + apply N.eqb_eq in Hz. subst n. reflexivity.
    + rewrite text_eqb_false by (intros [= ->]; discriminate E).
      rewrite (R w n) by (apply read_digits_Some; [intros ->; discriminate E | exact Hn]).
      destruct n as [|p]; [discriminate Hz | reflexivity].
  - (* int() gets the digits without their zeros *)
    rewrite <- (read_lstrip0 10 w) in Hn by reflexivity. apply lstrip0_digits in Hw.
    rewrite whole_pos by exact Hw. destruct (lstrip0 w) as [|c r]; [injection Hn as <-; reflexivity|].
    rewrite text_eqb_false by (intros [= -> _]; discriminate Hw). rewrite (R (c :: r) n Hn). destruct n; reflexivity.
Qed.

(* is_decimal_token behind the sign *)
Definition decimal_body (s : text) : bool :=
  match split_dot s with
  | (w, Some f) => forallb is_dec_digit w && forallb is_dec_digit f && negb (match f with [] => true | _ => false end)
  | (_, None) => false
  end.

Lemma decimal_body_parts s : decimal_body s = true ->
  exists w f, s = w ++ DOT :: f /\ forallb is_dec_digit w = true /\ forallb is_dec_digit f = true /\ f <> [].
Proof.
  unfold decimal_body. destruct (split_dot s) as [w [f|]] eqn:Es; [|discriminate]. intro H.
  apply andb_prop in H as [H Hne]. apply andb_prop in H.
  exists w, f. split; [exact (split_dot_Some s w f Es)|]. destruct f; [discriminate Hne|]. repeat split; (apply H || discriminate).
Qed.

Lemma parts_decimal_body w f : forallb is_dec_digit w = true -> forallb is_dec_digit f = true -> f <> [] ->
  decimal_body (w ++ DOT :: f) = true.
Proof.
  intros Hw Hf Hne. unfold decimal_body. rewrite split_dot_nodot, Hw, Hf by (apply digits_nodot; exact Hw).
  destruct f; [contradiction | reflexivity].
Qed.

Lemma decimal_token_parts tok : is_decimal_token tok = true ->
  exists (neg : bool) w f, tok = (if neg then [MINUS] else []) ++ w ++ DOT :: f /\
    forallb is_dec_digit w = true /\ forallb is_dec_digit f = true /\ f <> [].
Proof.
  destruct tok as [|c body]; [discriminate|]. intro H.
  apply (decimal_body_parts (if c =? MINUS then body else c :: body)) in H. destruct H as (w & f & E & H).
  destruct (N.eqb_spec c MINUS) as [->|_].
  - exists true, w, f. rewrite <- E. split; [reflexivity | exact H].
  - exists false, w, f. split; [exact E | exact H].
Qed.

Lemma parts_decimal_token (neg : bool) w f : forallb is_dec_digit w = true -> forallb is_dec_digit f = true -> f <> [] ->
  is_decimal_token ((if neg then [MINUS] else []) ++ w ++ DOT :: f) = true.
Proof.
  intros Hw Hf Hne. pose proof (parts_decimal_body w f Hw Hf Hne) as B. destruct neg; [exact B|].
  destruct w as [|c r]; [exact B|]. apply andb_prop in Hw as [Hc _].
  unfold is_decimal_token. cbn [app]. destruct (N.eqb_spec c MINUS) as [->|_]; [discriminate Hc | exact B].
Qed.

(* every value the reader produces from a DECIMAL token is printed as a DECIMAL token that reads as the same value *)
Theorem fixed_roundtrip tok : is_decimal_token tok = true ->
  exists v, read_fixed tok = Some v /\ is_decimal_token v = true /\ read_fixed v = Some v.
Proof.
  intro H. apply decimal_token_parts in H. destruct H as (neg & w & f & -> & Hw & Hf & Hne).
  destruct (read_digits_total w Hw 0) as [n Hn]. rewrite (read_fixed_decimal neg w f n Hw Hf Hn).
  (* the whole part of the value is the printed n, a digit string that reads as n again *)
  pose proof (spell_nat_dec_chars false n) as Hs. eexists. split; [reflexivity|]. split.
  - apply parts_decimal_token; assumption.
  - apply read_fixed_decimal; [exact Hs | exact Hf | apply read_spell_nat, dec_radix].
Qed.

(* redundant leading zeros of a DECIMAL do not change its value *)
Theorem fixed_leading_zeros (neg : bool) k w f :
  forallb is_dec_digit w = true -> forallb is_dec_digit f = true ->
  read_fixed ((if neg then [MINUS] else []) ++ repeat ZERO k ++ w ++ DOT :: f) =
  read_fixed ((if neg then [MINUS] else []) ++ w ++ DOT :: f).
Proof.
  intros Hw Hf. destruct (read_digits_total w Hw 0) as [n Hn].
  assert (Hzw : forallb is_dec_digit (repeat ZERO k ++ w) = true) by (rewrite forallb_app, forallb_repeat by reflexivity; exact Hw).
  assert (Hzn : read_digits_from 10 0 (repeat ZERO k ++ w) = Some n) by (rewrite read_zeros by reflexivity; exact Hn).
  rewrite (read_fixed_decimal neg w f n Hw Hf Hn), (app_assoc (repeat ZERO k)). apply read_fixed_decimal; assumption.
Qed.

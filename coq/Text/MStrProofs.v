(* Multi-line string literals survive print -> read, for every string that is multi-line exact, at every indent. *)
From ES Require Import Base Text.Str Text.MStr.

Lemma split_aux_nonempty sep s : forall cur, split_aux sep s cur <> [].
Proof. induction s as [|c r IH]; intro cur; cbn [split_aux]; [discriminate|]. destruct (N.eqb c sep); [discriminate | apply IH]. Qed.

Lemma join_cons sep x r : r <> [] -> join sep (x :: r) = x ++ sep :: join sep r.
Proof. destruct r; [contradiction | reflexivity]. Qed.

Lemma split_aux_join sep s : forall cur, join sep (split_aux sep s cur) = rev cur ++ s.
Proof.
  induction s as [|c r IH]; intro cur; cbn [split_aux].
  - cbn [join]. rewrite app_nil_r. reflexivity.
  - destruct (N.eqb_spec c sep) as [->|_].
    + rewrite join_cons by apply split_aux_nonempty. rewrite IH. reflexivity.
    + rewrite IH. cbn [rev]. rewrite <- app_assoc. reflexivity.
Qed.

Lemma split_join sep s : join sep (split sep s) = s.
Proof. unfold split. rewrite split_aux_join. reflexivity. Qed.

Definition breakfree : text -> Prop := Forall (fun c => is_break c = false).

Lemma split_aux_breakfree s : forall cur,
  forallb (fun c => negb (is_break c) || N.eqb c LF) s = true -> breakfree cur ->
  Forall breakfree (split_aux LF s cur).
Proof.
  induction s as [|c r IH]; intros cur Hs Hc; cbn [split_aux].
  - constructor; [apply Forall_rev, Hc | constructor].
  - apply andb_prop in Hs as [Hx Hs]. destruct (N.eqb c LF).
    + constructor; [apply Forall_rev, Hc | apply IH; [exact Hs | constructor]].
    + apply IH; [exact Hs|]. constructor; [|exact Hc]. rewrite orb_false_r in Hx. apply negb_true_iff, Hx.
Qed.

Lemma breakfree_spaces k : breakfree (spaces k).
Proof. apply Forall_forall. intros c Hc. apply repeat_spec in Hc. subst c. reflexivity. Qed.

Lemma splitlines_aux_run ln : breakfree ln -> forall rest cur,
  splitlines_aux (ln ++ rest) cur false = splitlines_aux rest (rev ln ++ cur) false.
Proof.
  induction 1 as [|c ln Hc _ IH]; intros rest cur; [reflexivity|].
  cbn [app splitlines_aux andb]. rewrite Hc, IH. cbn [rev]. rewrite <- app_assoc. reflexivity.
Qed.

Lemma splitlines_aux_lf rest cur : splitlines_aux (LF :: rest) cur false = rev cur :: splitlines_aux rest [] false.
Proof. reflexivity. Qed.

Lemma splitlines_line ln rest : breakfree ln ->
  splitlines_aux (ln ++ LF :: rest) [] false = ln :: splitlines_aux rest [] false.
Proof. intro H. rewrite splitlines_aux_run, splitlines_aux_lf, app_nil_r, rev_involutive by exact H. reflexivity. Qed.

Lemma splitlines_aux_tail ln : breakfree ln ->
  splitlines_aux ln [] false = match ln with [] => [] | _ => [ln] end.
Proof.
  intro H. pose proof (splitlines_aux_run ln H [] []) as R. rewrite app_nil_r in R. rewrite R.
  cbn [splitlines_aux]. rewrite app_nil_r, rev_involutive. destruct ln as [|c r]; [reflexivity|].
  cbn [rev]. destruct (rev r ++ [c]) eqn:E; [destruct (rev r); discriminate E | reflexivity].
Qed.

Lemma splitlines_lines PL : PL <> [] -> Forall breakfree PL -> forall sp, breakfree sp ->
  splitlines_aux (join LF PL ++ LF :: sp) [] false = PL ++ match sp with [] => [] | _ => [sp] end.
Proof.
  induction PL as [|x PL IH]; intros Hne Hb sp Hsp; [contradiction|].
  pose proof (Forall_inv Hb) as Hx. apply Forall_inv_tail in Hb. destruct PL as [|y PL'].
  - cbn [join app]. rewrite splitlines_line, splitlines_aux_tail by assumption. reflexivity.
  - rewrite join_cons by discriminate. rewrite <- app_assoc. cbn [app].
    rewrite splitlines_line, IH by (assumption || discriminate). reflexivity.
Qed.

Lemma ends_with_break_line a c ln : breakfree ln ->
  ends_with_break (a ++ c :: ln) = match ln with [] => is_break c | _ => false end.
Proof.
  intro H. unfold ends_with_break. rewrite rev_app_distr. destruct ln as [|x ln]; [reflexivity|].
  apply Forall_rev in H. cbn [rev] in *. destruct (rev ln ++ [x]) as [|y l] eqn:E; [destruct (rev ln); discriminate E|].
  exact (Forall_inv H).
Qed.

Lemma all_lines_printed PL sp : PL <> [] -> Forall breakfree PL -> breakfree sp ->
  all_lines (LF :: join LF PL ++ LF :: sp) = [] :: PL ++ [sp].
Proof.
  intros Hne Hb Hsp. unfold all_lines, splitlines.
  (* app_comm_cons: the body as (LF :: join LF PL) ++ LF :: sp, the form ends_with_break_line takes *)
  rewrite splitlines_aux_lf, splitlines_lines, (app_comm_cons (join LF PL)), ends_with_break_line by assumption.
  destruct sp; [rewrite app_nil_r|]; reflexivity.
Qed.

Lemma parts_snoc a (mid : list text) z : parts (a :: mid ++ [z]) = (a, mid, z).
Proof.
  destruct mid as [|m mid]; [reflexivity|]. unfold parts. cbn [app].
  destruct (mid ++ [z]) eqn:E; [destruct mid; discriminate E|].
  rewrite <- E, app_comm_cons, removelast_last, last_last. reflexivity.
Qed.

Lemma leading_spaces_pad k x : leading_spaces (spaces k ++ x) = k + leading_spaces x.
Proof. induction k as [|k IH]; [reflexivity|]. cbn [spaces repeat app leading_spaces]. rewrite N.eqb_refl. fold (spaces k). rewrite IH. reflexivity. Qed.

Lemma skipn_pad k x : skipn k (spaces k ++ x) = x.
Proof. induction k as [|k IH]; [reflexivity | exact IH]. Qed.

Lemma lstrip_spaces_all k : lstrip_spaces (spaces k) = [].
Proof.
  unfold lstrip_spaces. rewrite <- (app_nil_r (spaces k)), leading_spaces_pad. cbn [leading_spaces]. rewrite Nat.add_0_r. apply skipn_pad.
Qed.

Lemma list_min_shift {A} (g h : A -> nat) k l : (forall x, g x = k + h x) -> l <> [] ->
  list_min (map g l) = k + list_min (map h l).
Proof.
  intro E. destruct l as [|x l]; [contradiction | intros _]. unfold list_min. cbn [map]. rewrite (E x). generalize (h x).
  induction l as [|y l IH]; intro m; [reflexivity|]. cbn [map fold_left]. rewrite E, Nat.add_min_distr_l. apply IH.
Qed.

Lemma list_min_zero l : In 0 l -> list_min l = 0.
Proof.
  destruct l as [|a l]; [intros []|]. unfold list_min. revert a. induction l as [|y l IH]; intros a H.
  - destruct H as [H|[]]. exact H.
  - apply IH. destruct H as [->|[->|H]]; [left; reflexivity | left; apply Nat.min_0_r | right; exact H].
Qed.

Lemma finish_padded k n L :
  existsb (fun ln => match ln with c :: _ => negb (N.eqb c SPC) | [] => true end) L = true ->
  finish ([], map (fun o => spaces k ++ o) L, spaces n) = join LF L.
Proof.
  intro H. apply existsb_exists in H. destruct H as (ln & Hin & Hln). unfold finish. rewrite lstrip_spaces_all.
  (* the common indent is the pad: every line has it, and the line without a leading blank has no more *)
  assert (Hmin : list_min (map leading_spaces (map (fun o => spaces k ++ o) L)) = k).
  { rewrite map_map, (list_min_shift _ leading_spaces k).
    - rewrite list_min_zero; [apply Nat.add_0_r|]. apply in_map_iff. exists ln. split; [|exact Hin].
      destruct ln; [reflexivity|]. cbn [leading_spaces]. apply negb_true_iff in Hln. rewrite Hln. reflexivity.
    - apply leading_spaces_pad.
    - intros ->. destruct Hin. }
  rewrite Hmin, map_map, (map_ext _ (fun o => o)), map_id by (intro; apply skipn_pad). reflexivity.
Qed.

Definition multi_body (indent : nat) (s : text) : text :=
  LF :: join LF (map (fun o => spaces (4 * indent + 4) ++ o) (split LF s)) ++ LF :: spaces (4 * indent).

Lemma print_multi_eq q indent s : print_multi q indent s = [q; q; q] ++ multi_body indent s ++ [q; q; q].
Proof. unfold print_multi, multi_body. cbn [app]. rewrite <- app_assoc. reflexivity. Qed.

Lemma read_multi_delimited a b c a' b' c' body : read_multi (a :: b :: c :: body ++ [a'; b'; c']) = read_multi_body body.
Proof.
  unfold read_multi. cbn [length skipn]. rewrite app_length, Nat.add_comm. cbn [length Nat.add Nat.sub].
  rewrite Nat.sub_0_r, firstn_app, Nat.sub_diag, firstn_all, app_nil_r. reflexivity.
Qed.

Theorem multi_roundtrip q indent s : multi_exact s = true -> read_multi (print_multi q indent s) = s.
Proof.
  unfold multi_exact. intro H. apply andb_prop in H as [Hbr Hex].
  assert (HL : Forall breakfree (split LF s)) by (apply split_aux_breakfree; [exact Hbr | constructor]).
  assert (HP : Forall breakfree (map (fun o => spaces (4 * indent + 4) ++ o) (split LF s))).
  { apply Forall_map. revert HL. apply Forall_impl. intros ln Hln. apply Forall_app. split; [apply breakfree_spaces | exact Hln]. }
  assert (HN : map (fun o => spaces (4 * indent + 4) ++ o) (split LF s) <> []).
  { intro E. apply map_eq_nil in E. exact (split_aux_nonempty _ _ _ E). }
  rewrite print_multi_eq. cbn [app]. rewrite read_multi_delimited. unfold read_multi_body, multi_body.
  rewrite all_lines_printed, parts_snoc, finish_padded by (assumption || apply breakfree_spaces). apply split_join.
Qed.

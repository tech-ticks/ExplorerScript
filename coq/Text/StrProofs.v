(* Single-line string literals survive print -> lex -> read, for every string that is single-line exact. *)
From ES Require Import Base Text.Str.

(* has_pair, replace2 and the lexer look one character ahead *)
Definition starts (c : N) (s : text) : bool := match s with y :: _ => N.eqb y c | [] => false end.

Lemma replace1_cons a c x s : replace1 a c (x :: s) = (if N.eqb x a then c else [x]) ++ replace1 a c s.
Proof. reflexivity. Qed.

Lemma replace2_cons a b c x s :
  replace2 a b c (x :: s) = if N.eqb x a && starts b s then c ++ replace2 a b c (tl s) else x :: replace2 a b c s.
Proof. destruct s; [rewrite andb_false_r|]; reflexivity. Qed.

Lemma has_pair_cons a b x s : has_pair a b (x :: s) = N.eqb x a && starts b s || has_pair a b s.
Proof. destruct s; [rewrite andb_false_r|]; reflexivity. Qed.

Lemma starts_escaped a b c s : c <> a -> starts c (replace1 b [a; b] s) = negb (N.eqb c b) && starts c s.
Proof.
  intro Hca. destruct s as [|x s]; [symmetry; apply andb_false_r|]. rewrite replace1_cons. destruct (N.eqb x b) eqn:E; cbn [app starts].
  - apply N.eqb_eq in E. subst x. rewrite (N.eqb_sym c b), andb_negb_l. apply N.eqb_neq. congruence.
  - destruct (N.eqb_spec x c) as [->|_]; [|symmetry; apply andb_false_r]. rewrite E. reflexivity.
Qed.

Lemma replace2_escape a b s : a <> b -> replace2 a b [b] (replace1 b [a; b] s) = s.
Proof.
  intro Hab. induction s as [|x s IH]; [reflexivity|]. rewrite replace1_cons. destruct (N.eqb_spec x b) as [->|_]; cbn [app].
  - rewrite replace2_cons. cbn [starts tl]. rewrite !N.eqb_refl, IH. reflexivity.
  - rewrite replace2_cons, starts_escaped, N.eqb_refl, andb_false_r, IH by congruence. reflexivity.
Qed.

Lemma replace2_noop a b c s : has_pair a b s = false -> replace2 a b c s = s.
Proof.
  induction s as [|x s IH]; [reflexivity|]. rewrite has_pair_cons, replace2_cons. intro H. apply orb_false_elim in H.
  destruct H as [H1 H2]. rewrite H1, (IH H2). reflexivity.
Qed.

Lemma has_pair_escaped a b c s : a <> b -> c <> b -> c <> a ->
  has_pair a c (replace1 b [a; b] s) = has_pair a c s.
Proof.
  intros Hab Hcb Hca. apply N.eqb_neq in Hcb. induction s as [|x s IH]; [reflexivity|].
  rewrite replace1_cons, (has_pair_cons a c x s). destruct (N.eqb_spec x b) as [->|_]; cbn [app].
  - rewrite !has_pair_cons, IH. cbn [starts]. rewrite (N.eqb_sym b c), Hcb.
    replace (N.eqb b a) with false by (symmetry; apply N.eqb_neq; congruence). rewrite andb_false_r. reflexivity.
  - rewrite has_pair_cons, IH, starts_escaped, Hcb by exact Hca. reflexivity.
Qed.

Lemma exact_parts s : single_exact s = true ->
  mem CR s = false /\ mem FF s = false /\ has_pair BS LN s = false /\ has_pair BS SQ s = false /\
  has_pair BS DQ s = false /\ has_pair BS LF s = false /\ ends_with BS s = false.
Proof.
  unfold single_exact. intro H. apply negb_true_iff in H.
  repeat (apply orb_false_elim in H; destruct H as [H ?]). repeat split; assumption.
Qed.

Lemma read_print_single q s : read_single (print_single q s) = unescape (escape_quotes q s).
Proof. unfold read_single, print_single. cbn [tl]. rewrite removelast_last. reflexivity. Qed.

Theorem single_roundtrip_dq s : single_exact s = true -> read_single (print_single DQ s) = s.
Proof.
  intro H. destruct (exact_parts s H) as (_ & _ & Hn & Hs & _ & _ & _).
  rewrite read_print_single. unfold unescape, escape_quotes.
  rewrite replace2_escape by discriminate. rewrite (replace2_noop _ _ _ _ Hs). apply replace2_noop. exact Hn.
Qed.

Theorem single_roundtrip_sq s : single_exact s = true -> read_single (print_single SQ s) = s.
Proof.
  intro H. destruct (exact_parts s H) as (_ & _ & Hn & _ & Hd & _ & _).
  rewrite read_print_single. unfold unescape, escape_quotes.
  rewrite (replace2_noop BS DQ) by (rewrite has_pair_escaped; [exact Hd | discriminate..]).
  rewrite replace2_escape by discriminate. apply replace2_noop. exact Hn.
Qed.

Lemma ends_with_cons a x s : ends_with a (x :: s) = match s with [] => N.eqb x a | _ => ends_with a s end.
Proof.
  destruct s as [|y s]; [reflexivity|]. unfold ends_with. cbn [rev]. destruct (rev s ++ [y]) eqn:E; [|reflexivity].
  destruct (rev s); discriminate E.
Qed.

Lemma mem_cons a x s : mem a (x :: s) = N.eqb a x || mem a s.
Proof. reflexivity. Qed.

Definition lexable (q : N) (s : text) : Prop :=
  mem CR s = false /\ mem LF s = false /\ mem FF s = false /\ has_pair BS q s = false /\ ends_with BS s = false.

Lemma lexable_cons q x t : lexable q (x :: t) ->
  N.eqb x CR || N.eqb x LF || N.eqb x FF = false /\ (N.eqb x BS = true -> t <> [] /\ starts q t = false) /\ lexable q t.
Proof.
  intros (Hcr & Hlf & Hff & Hp & He). rewrite mem_cons, N.eqb_sym in Hcr, Hlf, Hff. rewrite has_pair_cons in Hp.
  rewrite ends_with_cons in He. apply orb_false_elim in Hcr, Hlf, Hff, Hp.
  destruct Hcr as [-> Hcr], Hlf as [-> Hlf], Hff as [-> Hff], Hp as [Hb Hp]. split; [reflexivity|]. split.
  - intro E. rewrite E in Hb, He. destruct t; [discriminate He | split; [discriminate | exact Hb]].
  - destruct t; repeat split; assumption.
Qed.

(* by induction on a bound for the length: at a backslash the step goes two characters down *)
Lemma lex_escaped q : forall n s, length s <= n -> lexable q s ->
  lex_body q (replace1 q [BS; q] s) = true.
Proof.
  induction n as [|n IH]; intros s Hlen H; (destruct s as [|x t]; [reflexivity|]); cbn [length] in Hlen;
    [destruct (Nat.nle_succ_0 _ Hlen)|].
  apply le_S_n in Hlen. apply lexable_cons in H. destruct H as (Hx & Hb & Ht). rewrite replace1_cons.
  destruct (N.eqb x q) eqn:Exq; cbn [app lex_body].
  - rewrite N.eqb_refl. apply IH; [exact Hlen | exact Ht].
  - destruct (N.eqb x BS).
    + (* a backslash of the string: the lexer takes it together with the next character, which is not the quote *)
      destruct (Hb eq_refl) as [Hne Hs]. destruct t as [|y r]; [contradiction|]. cbn [starts] in Hs.
      rewrite replace1_cons, Hs. cbn [app]. apply lexable_cons in Ht. apply IH; [apply Nat.lt_le_incl, Hlen | apply Ht].
    + rewrite Hx, Exq. apply IH; [exact Hlen | exact Ht].
Qed.

Theorem single_lexes q s : (q = DQ \/ q = SQ) -> single_exact s = true -> mem LF s = false ->
  lex_body q (escape_quotes q s) = true.
Proof.
  intros Hq H Hlf. destruct (exact_parts s H) as (Hcr & Hff & _ & Hs & Hd & _ & He).
  apply (lex_escaped q (length s) s (le_n _)).
  repeat split; try assumption. destruct Hq; subst; assumption.
Qed.

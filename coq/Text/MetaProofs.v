(* Every fallback text is handed to the SsbScript compiler, whatever follows its first two lines. *)
From ES Require Import Base Text.Str Text.MStr Text.MStrProofs Text.Meta.

Lemma breakfree_b (l : text) : forallb (fun c => negb (is_break c)) l = true -> breakfree l.
Proof. intro H. apply Forall_forall. intros c Hc. apply negb_true_iff, (forallb_In _ _ _ H Hc). Qed.

Lemma parse_meta_one l1 l2 kv rest : breakfree l1 -> breakfree l2 ->
  starts_with MARK (strip l1) = true -> attr_of_line l1 = Some kv -> starts_with MARK (strip l2) = false ->
  parse_meta (l1 ++ LF :: l2 ++ LF :: rest) = [kv].
Proof.
  intros B1 B2 M1 A1 M2. unfold parse_meta, splitlines. rewrite !splitlines_line by assumption.
  cbn [attrs_of_lines]. rewrite M1, A1, M2. reflexivity.
Qed.

Theorem fallback_is_dispatched rest : dispatches_to_ssbscript (FALLBACK_HEAD ++ rest) = true.
Proof.
  assert (E : forall l1 l2, (l1 ++ [LF] ++ l2 ++ [LF]) ++ rest = l1 ++ LF :: l2 ++ LF :: rest)
    by (intros; rewrite <- !app_assoc; reflexivity).
  unfold dispatches_to_ssbscript, FALLBACK_HEAD. rewrite E.
  (* l1 is the marker line, which gives the attribute; l2 the warning line, no attribute line, which ends the loop;
     the premises of parse_meta_one and what is left are facts about these two texts *)
  rewrite (parse_meta_one _ _ (IS_SSB_SCRIPT, s2t "true")); try apply breakfree_b; vm_compute; reflexivity.
Qed.

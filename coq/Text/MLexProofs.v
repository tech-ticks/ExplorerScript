(* A printed multi-line literal is one token: if the delimiter does not occur in the string, the lexer rule takes
   exactly the printed text, whatever follows. *)
From ES Require Import Base Text.Str Text.MStr Text.MStrProofs Text.MLex.

Lemma is3_other q a b c : a <> q \/ b <> q \/ c <> q -> is3 q a b c = false.
Proof.
  unfold is3. intros [H|[H|H]]; apply N.eqb_neq in H; rewrite H; [reflexivity | rewrite andb_false_r; reflexivity | apply andb_false_r].
Qed.

Lemma occurs3_step q x y z t : occurs3 q (x :: y :: z :: t) = is3 q x y z || occurs3 q (y :: z :: t).
Proof. reflexivity. Qed.

Lemma scan_step q x y z t : scan q (x :: y :: z :: t) = if is3 q x y z then Some 0 else option_map S (scan q (y :: z :: t)).
Proof. reflexivity. Qed.

Lemma occurs3_short q a : (length a < 3)%nat -> occurs3 q a = false.
Proof. destruct a as [|x [|y [|z a]]]; cbn [length]; intro H; try reflexivity. lia. Qed.

Lemma occurs3_cons q c b : c <> q -> occurs3 q (c :: b) = occurs3 q b.
Proof.
  intro Hc. cbn [occurs3]. destruct b as [|b1 [|b2 b']]; try reflexivity. rewrite is3_other by (left; exact Hc). reflexivity.
Qed.

(* a character other than the quote separates occurrences *)
Lemma occurs3_sep q c : c <> q -> forall a b, occurs3 q (a ++ c :: b) = occurs3 q a || occurs3 q b.
Proof.
  intros Hc. induction a as [|x a IH]; intro b; [apply occurs3_cons, Hc|].
  (* an occurrence that starts at x lies in a, or c is one of its three characters *)
  specialize (IH b). destruct a as [|y [|z a']]; cbn [app] in *.
  - destruct b as [|b1 b']; [reflexivity|]. rewrite occurs3_step, is3_other by (right; left; exact Hc). exact IH.
  - rewrite occurs3_step, is3_other by (right; right; exact Hc). exact IH.
  - rewrite !occurs3_step, IH, orb_assoc. reflexivity.
Qed.

Lemma occurs3_join q sep ls : sep <> q -> occurs3 q (join sep ls) = existsb (occurs3 q) ls.
Proof.
  intro Hq. induction ls as [|x r IH]; [reflexivity|].
  destruct r as [|y r']; [cbn [join existsb]; rewrite orb_false_r; reflexivity|].
  rewrite join_cons, occurs3_sep, IH by (exact Hq || discriminate). reflexivity.
Qed.

Lemma occurs3_pad q k x : SPC <> q -> occurs3 q (spaces k ++ x) = occurs3 q x.
Proof. intro Hq. induction k as [|k IH]; [reflexivity|]. rewrite <- IH. apply occurs3_cons. exact Hq. Qed.

Lemma occurs3_join_pad q sep k ls : sep <> q -> SPC <> q ->
  occurs3 q (join sep (map (fun o => spaces k ++ o) ls)) = occurs3 q (join sep ls).
Proof.
  intros Hl Hs. rewrite !occurs3_join by exact Hl. induction ls as [|x r IH]; [reflexivity|].
  cbn [map existsb]. rewrite occurs3_pad, IH by exact Hs. reflexivity.
Qed.

(* no occurrence may start in the body, nor in its last two characters together with the closing delimiter *)
Lemma scan_first q rest : forall body, occurs3 q (body ++ [q; q]) = false ->
  scan q (body ++ q :: q :: q :: rest) = Some (length body).
Proof.
  induction body as [|x b IH]; intro H; [cbn [app scan]; unfold is3; rewrite !N.eqb_refl; reflexivity|].
  destruct b as [|y [|z b']]; cbn [app] in *; rewrite occurs3_step in H; apply orb_false_elim in H; destruct H as [H1 H2];
    rewrite scan_step, H1, (IH H2); reflexivity.
Qed.

Lemma lex_multi_delimited q body rest : occurs3 q (body ++ [q; q]) = false ->
  lex_multi q (([q; q; q] ++ body ++ [q; q; q]) ++ rest) = Some ([q; q; q] ++ body ++ [q; q; q], rest).
Proof.
  intro H. set (tok := [q; q; q] ++ body ++ [q; q; q]).
  assert (E : tok ++ rest = q :: q :: q :: body ++ q :: q :: q :: rest) by (unfold tok; cbn [app]; rewrite <- app_assoc; reflexivity).
  assert (L : length tok = length body + 6) by (unfold tok; cbn [app length]; rewrite app_length; cbn [length]; lia).
  rewrite E. unfold lex_multi. unfold is3 at 1. rewrite !N.eqb_refl, scan_first by exact H. cbn [andb].
  rewrite <- E, <- L, firstn_app, skipn_app, Nat.sub_diag, firstn_all, skipn_all. cbn [firstn skipn]. rewrite app_nil_r. reflexivity.
Qed.

Theorem printed_literal_is_one_token q indent s rest :
  q <> LF -> q <> SPC -> occurs3 q s = false ->
  lex_multi q (print_multi q indent s ++ rest) = Some (print_multi q indent s, rest).
Proof.
  intros Hl Hs Ho. apply not_eq_sym in Hl, Hs. rewrite print_multi_eq. apply lex_multi_delimited.
  unfold multi_body. rewrite <- app_comm_cons, <- app_assoc, <- app_comm_cons.
  (* the two line feeds cut the text into the padded lines, which hold the delimiter only if s does, and the closing
     indent with two quotes, too short for one *)
  rewrite occurs3_cons, occurs3_sep, occurs3_join_pad, split_join, Ho, occurs3_pad by assumption. reflexivity.
Qed.

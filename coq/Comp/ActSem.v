(* A transformation of pseudo code given element by element: keep an element, replace a plain jump to a label
   that ends its routine by a Return operation, or drop an element (one that can not be reached, or the label that
   ends its routine).  If the annotated list of the result is the filtered annotated list of the input, and nothing
   falls through into a dropped element, the two programs behave equally at corresponding positions.
   (strip_last_label's sweep is an instance.) *)
From ES Require Import Base Ssb.Cfg Ssb.Tables Ssb.Machine Ssb.Silent Comp.Passes Comp.PopSem Comp.Flat Comp.RemoveSem.

(* [setlast]: everything after the element in its routine is dropped, so it becomes the last of its routine *)
Inductive action := AKeep (setlast : bool) | ARepl (setlast : bool) (x' : pop) | ADead.

Definition conv_act (e : (pop * bool * bool) * action) : option (pop * bool * bool) :=
  let '((x, last, pc), a) := e in
  match a with AKeep sl => Some (x, last || sl, pc) | ARepl sl x' => Some (x', last || sl, pc) | ADead => None end.

(* whether control can pass from the entry to the next one (the middle component plays no part) *)
Definition falls_through (e : pop * bool * bool) : bool :=
  let '(x, _, pc) := e in
  match x with
  | POp o => negb (ends_flow (code o) && negb pc)
  | PLabel _ => true
  | PJump o _ => negb (is_jump (code o))
  end.

Lemma node_of_pop_rel (R : nat -> nat -> Prop) all1 all2 s1 s2 x n1 n2 pc :
  R s1 s2 -> (falls_through (x, false, pc) = true -> R n1 n2) ->
  (forall o l, x = PJump o l -> exists i j, find_label l all1 0 = Some i /\ find_label l all2 0 = Some j /\ R i j) ->
  node_rel R (node_of_pop all1 s1 x n1 pc) (node_of_pop all2 s2 x n2 pc).
Proof.
  intros Hs Hn Hj. destruct x as [o|l|o l]; cbn [node_of_pop falls_through] in *.
  - destruct (ends_flow (code o) && negb pc); (split; [reflexivity|]); [exact Hs | apply Hn; reflexivity].
  - apply Hn. reflexivity.
  - destruct (Hj o l eq_refl) as (i & j & -> & -> & Hij).
    destruct (is_jump (code o)); [exact Hij | split; [reflexivity | split; [exact Hij | apply Hn; reflexivity]]].
Qed.

Section Act.
  Variable rs rs2 : list (list pop).
  Variable acts : list action.

  Let all1 := concat rs.
  Let N1 := length all1.
  Let L1 := annotate pop_isctx rs.
  Let C1 := combine L1 acts.
  Let all2 := concat rs2.
  Let N2 := length all2.
  Let L2 := annotate pop_isctx rs2.
  Let g1 := cfg_of_pops rs.
  Let g2 := cfg_of_pops rs2.
  Let ph := phi conv_act C1.

  Hypothesis Hlen : length acts = N1.
  Hypothesis HL2 : L2 = omap conv_act C1.
  Definition deadlabel (a : nat) : Prop := exists l pc, nth_error C1 a = Some ((PLabel l, true, pc), ADead).
  Definition alive (a : nat) : Prop := forall e, nth_error C1 a <> Some (e, ADead).

  (* a kept jump goes to a label that is kept *)
  Hypothesis Hkeptjump : forall a o l last pc sl i, nth_error C1 a = Some ((PJump o l, last, pc), AKeep sl) ->
    find_label l all1 0 = Some i -> alive i.
  (* a replaced element is a plain jump to a label that is the last element of its routine; its replacement is a
     Return operation that stops the routine *)
  Hypothesis Hrepl : forall a x last pc sl x', nth_error C1 a = Some ((x, last, pc), ARepl sl x') ->
    exists o l i pcl, x = PJump o l /\ is_jump (code o) = true /\ find_label l all1 0 = Some i /\
                      nth_error L1 i = Some (PLabel l, true, pcl) /\
                      pc = false /\ exists z, x' = POp (mkOp z OP_RETURN []).
  (* where a kept or replaced element that is not the last of its routine falls through to: the next element is alive,
     or - exactly when the element becomes the last of its routine - the dropped label that ended the routine *)
  Hypothesis Hnext : forall a x pc act, nth_error C1 a = Some ((x, false, pc), act) -> act <> ADead ->
    falls_through (x, false, pc) = true ->
    match act with
    | AKeep true | ARepl true _ => deadlabel (S a)
    | _ => alive (S a)
    end.
  Hypothesis Hdef : forall o l, In (PJump o l) all1 -> find_label l all1 0 <> None.

  Lemma act_len : length C1 = N1.  Proof. apply (pf_len Hlen). Qed.
  Lemma act_kept_len : length (omap conv_act C1) = N2.  Proof. apply (pf_len2 HL2). Qed.

  Definition act_g1 : cfg := flat_cfg (pop_node all1) N1 (map fst C1).
  Definition act_g2 : cfg := flat_cfg (pop_node all2) N2 (omap conv_act C1).

  Lemma act_find l i : find_label l all1 0 = Some i -> alive i -> find_label l all2 0 = Some (ph i).
  Proof.
    intros H Hal. apply (pf_find Hlen HL2 l i); [|exact H|].
    - intros [[[x last] pc] [sl|sl x'|]] e Hin He; try discriminate; injection He as <-; [reflexivity|].
      apply In_nth_error in Hin. destruct Hin as [a Ha].
      destruct (Hrepl _ _ _ _ _ _ Ha) as (o & lx & _ & _ & -> & _ & _ & _ & _ & z & ->). reflexivity.
    - intros [[[x last] pc] act] He Hf. destruct act; try discriminate. apply (Hal _ He).
  Qed.

  Definition ARel (a b : nat) : Prop :=
    (a = S N1 /\ b = S N2) \/ (a <= N1 /\ alive a /\ b = ph a) \/ (deadlabel a /\ b = N2).

  Lemma act_alive_end : alive N1.
  Proof. intros e H. pose proof (filt_lt act_len H). lia. Qed.

  Definition sets_last (act : action) : bool := match act with AKeep sl | ARepl sl _ => sl | ADead => false end.

  Lemma act_succ_rel a x (last : bool) pc act e : nth_error C1 a = Some ((x, last, pc), act) -> conv_act ((x, last, pc), act) = Some e ->
    falls_through (x, last, pc) = true ->
    ARel (if last then N1 else S a) (if last || sets_last act then N2 else S (ph a)).
  Proof.
    intros Ha Hact Hft. destruct last.
    - right. left. split; [lia|]. split; [apply act_alive_end | symmetry; apply (phi_end act_len act_kept_len)].
    - cbn [orb]. assert (Hd : act <> ADead) by (intros ->; discriminate).
      assert (Hn : if sets_last act then deadlabel (S a) else alive (S a)).
      { pose proof (Hnext _ _ _ _ Ha Hd Hft) as Hn. destruct act as [[|]|[|] ?|]; exact Hn. }
      destruct (sets_last act); [right; right; split; [exact Hn | reflexivity]|].
      pose proof (filt_lt act_len Ha).
      destruct (filt_succ act_len act_kept_len Ha Hact false) as [[E _]|[Hle E]]; [lia|].
      right. left. split; [exact Hle | split; [exact Hn | exact E]].
  Qed.

  (* Running into the end of a routine is performing Return: beside the related places, a place from which the first
     graph falls off a routine corresponds to any Return operation of the second that stops. *)
  Definition act_falls_off (a : nat) : Prop := a = N1 \/ nth_error act_g1 a = Some (NGoto N1).
  Definition act_returns (b : nat) : Prop := nth_error act_g2 b = Some (implicit_return (S N2)).
  Definition ARel' (a b : nat) : Prop := ARel a b \/ (act_falls_off a /\ act_returns b).

  Lemma deadlabel_falls_off a : deadlabel a -> act_falls_off a.
  Proof. intros (l & pc & E). right. apply (filt_g1_nth (pop_node all1) fst N1 E). Qed.

  Lemma sim_falls_off a b : act_falls_off a -> act_returns b -> node_sim ARel' act_g1 act_g2 a b.
  Proof.
    intros [->|Hg] Hb; [apply (sim_fall act_len Hb); left; left; split; reflexivity|].
    unfold node_sim. rewrite Hg. exists b. split; [apply silently_refl | right; split; [left; reflexivity | exact Hb]].
  Qed.

  Lemma act_node_sim a b : ARel' a b -> node_sim ARel' act_g1 act_g2 a b.
  Proof.
    assert (Hret : act_returns N2) by (apply (filt_g2_fall act_kept_len)).
    intros [[[-> ->]|[(Hle & Hal & ->)|[Hdl ->]]]|[Ha Hb]].
    - apply (sim_stop act_len act_kept_len).
    - destruct (nth_error C1 a) as [[[[x last] pc] [sl|sl x'|]]|] eqn:E.
      + (* kept: the same element at the image of its place *)
        assert (Ef : conv_act ((x, last, pc), AKeep sl) = Some (x, last || sl, pc)) by reflexivity.
        apply (sim_kept E Ef). cbn [pop_node fst]. apply node_of_pop_rel; [left; left; split; reflexivity | |].
        * intro Hft. left. apply (act_succ_rel _ _ _ _ _ _ E Ef Hft).
        * intros o l ->. pose proof (Hdef o l (nth_error_In _ _ (pf_nth_all Hlen E))) as Hd.
          destruct (find_label l all1 0) as [i|] eqn:Fl; [|destruct (Hd eq_refl)].
          pose proof (Hkeptjump _ _ _ _ _ _ _ E Fl) as Hali.
          exists i, (ph i). split; [reflexivity|]. split; [apply (act_find _ _ Fl Hali)|].
          left. right. left. split; [apply (find_label_le _ _ _ Fl) | split; [exact Hali | reflexivity]].
      + (* a jump to the label that ends its routine, replaced by Return *)
        destruct (Hrepl _ _ _ _ _ _ E) as (o & l & i & pcl & -> & Hj & Fl & Hli & -> & z & ->).
        apply (sim_silent i E); [cbn [pop_node node_of_pop fst]; fold all1; rewrite Fl, Hj; reflexivity|].
        exists (ph a). split; [apply silently_refl|]. right. split.
        * right. unfold act_g1, C1, L1. rewrite (pf_fst Hlen). apply (flat_cfg_nth (pop_node all1) N1 _ _ _ Hli).
        * (* Return ends the flow and [pc] is false, so the node of the replacement is the implicit return itself *)
          apply (filt_g2_nth (pop_node all2) conv_act N2 E eq_refl).
      + destruct (Hal _ E).
      + (* the end of the program *)
        apply nth_error_None in E. rewrite act_len in E. assert (a = N1) as -> by lia.
        apply sim_falls_off; [left; reflexivity | unfold ph; rewrite (phi_end act_len act_kept_len); exact Hret].
    - (* the dropped label that ended a routine *) apply (sim_falls_off _ _ (deadlabel_falls_off _ Hdl) Hret).
    - apply (sim_falls_off _ _ Ha Hb).
  Qed.

  Theorem act_preserves_behaviour :
    (forall a, a <= S N1 -> exists o, reaches g1 a o) ->
    forall a b, ARel a b -> beh_eq g1 g2 a b.
  Proof.
    unfold g1, g2. rewrite (pf_g1 Hlen), (pf_g2 HL2). intros Hterm a b HR.
    apply (node_simulation_beh_eq _ _ ARel' act_node_sim); [|left; exact HR].
    intros a' b' _. apply (filt_reaches (pop_node all1) fst act_len Hterm).
  Qed.
End Act.

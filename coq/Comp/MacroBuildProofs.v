(* What ExplorerScriptMacro.build produces, for every blueprint, argument list and pair of counters: the blueprint
   under an injective renaming of its labels into numbers nobody had before, between a start and an end label. *)
From ES Require Import Base Ssb.Param Comp.MacroBuild.

Definition rho_of (m : lmap) (id : nat) : nat * lkind :=
  match lookup m id with Some v => v | None => (0, LPlain) end.

(* [e]: the end label of the expansion, the last number handed out before its body; [cl]: the label counter; [g]: the id a
   number went to - no number is handed out twice, said with a left inverse so that a new entry is compared with the
   counter and not with every other entry *)
Definition Inv (e : nat) (m : lmap) (cl : nat) : Prop :=
  e <= cl /\ exists g : nat -> nat, forall id v, lookup m id = Some v -> e < fst v <= cl /\ g (fst v) = id.

Lemma fresh_spec e m cl id k : Inv e m cl -> exists m1 cl1 v,
  fresh m cl id k = (m1, cl1, v) /\ Inv e m1 cl1 /\
  (forall j, lookup m1 j = if Nat.eqb j id then Some v else lookup m j) /\
  match lookup m id with Some w => w = v | None => snd v = k end.
Proof.
  unfold fresh. intros HI. destruct (lookup m id) as [v0|] eqn:L.
  - do 3 eexists. split; [reflexivity|]. split; [exact HI|]. split; [|reflexivity].
    intros j. destruct (Nat.eqb_spec j id) as [->|]; [exact L | reflexivity].
  - do 3 eexists. split; [reflexivity|]. split; [|split; reflexivity]. destruct HI as (Hle & g & Hb).
    split; [exact (le_S _ _ Hle)|]. exists (fun n => if Nat.eqb n (S cl) then id else g n).
    intros j w. cbn [lookup]. destruct (Nat.eqb_spec j id) as [->|].
    + intros [= <-]. cbn [fst]. rewrite Nat.eqb_refl. split; [split; [exact (le_n_S _ _ Hle) | apply le_n] | reflexivity].
    + intros H. destruct (Hb _ _ H) as [Hr Hg].
      (* an old number is at most cl, so it is not the new one *)
      rewrite (proj2 (Nat.eqb_neq _ _) (Nat.lt_neq _ _ (le_n_S _ _ (proj2 Hr)))).
      split; [split; [apply Hr | apply le_S, Hr] | exact Hg].
Qed.

(* the second clause, "every id of bp has an entry", is written so that it feeds [Inv] as it stands *)
Definition grows (bp : list bitem) (m m' : lmap) : Prop :=
  (forall id v, lookup m id = Some v -> lookup m' id = Some v) /\
  (forall id, In id (ids bp) -> lookup m' id = Some (rho_of m' id)) /\
  (forall id k, lookup m id = None -> first_kind bp id = Some k -> snd (rho_of m' id) = k).

Lemma grows_step {bp id k m m1 v m'} :
  (forall j, lookup m1 j = if Nat.eqb j id then Some v else lookup m j) ->
  match lookup m id with Some w => w = v | None => snd v = k end ->
  grows bp m1 m' -> grows (BLab id k :: bp) m m' /\ rho_of m' id = v.
Proof.
  intros F1 F2 (E & D & K).
  assert (V : lookup m' id = Some v) by (apply E; rewrite F1, Nat.eqb_refl; reflexivity).
  assert (R : rho_of m' id = v) by (unfold rho_of; rewrite V; reflexivity).
  split; [|exact R]. split; [|split].
  - intros j w L. apply E. rewrite F1. destruct (Nat.eqb_spec j id) as [->|]; [|exact L].
    rewrite L in F2. rewrite F2. reflexivity.
  - intros j [<-|Hj]; [rewrite R; exact V | apply D, Hj].
  - intros j kk L. cbn [first_kind]. destruct (Nat.eqb_spec j id) as [->|N].
    + intros [= <-]. rewrite R. rewrite L in F2. exact F2.
    + apply K. rewrite F1, (proj2 (Nat.eqb_neq j id) N). exact L.
Qed.

(* [go] renames every item by the map it has at that moment; as the map only grows and an id keeps its number, each
   item is already what the final map says ([grows_step]: rho_of m' id = v), so the output is [renamed] by the final map *)
Lemma go_spec s e : forall bp m cl co, Inv e m cl -> exists m' cl',
  go s e bp m cl co = (renamed s e (rho_of m') bp co, (m', cl', count_ops bp + co)) /\ Inv e m' cl' /\ grows bp m m'.
Proof.
  induction bp as [|b bp IH]; intros m cl co HI.
  - exists m, cl. split; [reflexivity|]. split; [exact HI|]. split; [intros ? ? H; exact H|]. split; [intros ? []|discriminate].
  - destruct b as [code ps | id k | code ps id k].
    + destruct (IH m cl (S co) HI) as (m' & cl' & E & G). exists m', cl'. split; [|exact G].
      cbn [go renamed count_ops]. rewrite E, <- plus_n_Sm. reflexivity.
    + destruct (fresh_spec e m cl id k HI) as (m1 & cl1 & v & Ef & I1 & F1 & F2).
      destruct (IH m1 cl1 co I1) as (m' & cl' & E & I' & G). destruct (grows_step F1 F2 G) as [G' R].
      exists m', cl'. split; [|exact (conj I' G')]. cbn [go renamed]. rewrite Ef, E, R. reflexivity.
    + destruct (fresh_spec e m cl id k HI) as (m1 & cl1 & v & Ef & I1 & F1 & F2).
      destruct (IH m1 cl1 (S co) I1) as (m' & cl' & E & I' & G). destruct (grows_step F1 F2 G) as [G' R].
      (* G' speaks of BLab id k :: bp; [grows] looks at ids and first_kind only, which compute alike on a jump *)
      exists m', cl'. split; [|exact (conj I' G')]. cbn [go renamed count_ops]. rewrite Ef, E, R, <- plus_n_Sm. reflexivity.
Qed.

(* the expansion is the blueprint renamed: injectively, into label numbers above both labels of the expansion and above
   every number the counter had given out before, every copy with the kind of the first mention *)
Theorem build_is_renaming s bp cl co :
  exists rho cl',
    build s bp cl co =
      (OLab (S cl) (LStart (S (count_ops bp))) :: renamed s (S (S cl)) rho bp co ++ [OLab (S (S cl)) LEnd],
       cl', co + count_ops bp)
    /\ S (S cl) <= cl'
    /\ (forall i, In i (ids bp) -> S (S cl) < fst (rho i) <= cl')
    /\ (forall i j, In i (ids bp) -> In j (ids bp) -> fst (rho i) = fst (rho j) -> i = j)
    /\ (forall i k, first_kind bp i = Some k -> snd (rho i) = k).
Proof.
  assert (I0 : Inv (S (S cl)) [] (S (S cl))) by (split; [apply le_n | exists (fun n => n); discriminate]).
  destruct (go_spec s _ bp _ _ co I0) as (m' & cl' & E & (Hle & g & Hb) & _ & D & K). exists (rho_of m'), cl'.
  split; [unfold build; rewrite E, (Nat.add_comm co); reflexivity|]. split; [exact Hle|]. split; [|split].
  - intros i H. exact (proj1 (Hb _ _ (D _ H))).
  - intros i j H H' E'. rewrite <- (proj2 (Hb _ _ (D _ H))), E'. exact (proj2 (Hb _ _ (D _ H'))).
  - intros i k. apply K. reflexivity.
Qed.

Lemma renamed_labels s e rho (P : nat -> Prop) : P e -> forall bp,
  Forall (fun i => P (fst (rho i))) (ids bp) -> forall co, Forall P (out_labels (renamed s e rho bp co)).
Proof.
  intros He. induction bp as [|b bp IH]; intros H co; [constructor|].
  apply Forall_app in H as [Hb H].
  destruct b as [code ps | id k | code ps id k]; cbn [renamed out_labels flat_map labels_of app].
  - destruct (is_return code); cbn [labels_of app]; [constructor; [exact He|]|]; apply IH, H.
  - constructor; [exact (Forall_inv Hb) | apply IH, H].
  - constructor; [exact (Forall_inv Hb) | apply IH, H].
Qed.

(* every label an expansion emits or jumps to was handed out by the label counter during this very build *)
Theorem build_labels_fresh s bp cl co out cl' co' :
  build s bp cl co = (out, cl', co') -> forall l, In l (out_labels out) -> cl < l <= cl'.
Proof.
  intros B. destruct (build_is_renaming s bp cl co) as (rho & cl1 & E & Hle & Hr & _).
  rewrite E in B. injection B as <- <- <-.
  assert (Hse : cl < S cl <= cl1 /\ cl < S (S cl) <= cl1) by lia. destruct Hse as [Hs He].
  apply Forall_forall. unfold out_labels. cbn [flat_map labels_of app]. rewrite flat_map_app.
  constructor; [exact Hs|]. apply Forall_app. split.
  - apply renamed_labels; [exact He|]. apply Forall_forall. intros i Hi. specialize (Hr i Hi). clear - Hr. lia.
  - constructor; [exact He | constructor].
Qed.

(* labels are private to each expansion: two builds - of the same macro or of different ones, one after the other with
   the compiler's counter, anything built in between - share no label *)
Theorem expansions_share_no_label s1 bp1 cl1 co1 out1 cl1' co1' s2 bp2 cl2 co2 out2 cl2' co2' :
  build s1 bp1 cl1 co1 = (out1, cl1', co1') -> build s2 bp2 cl2 co2 = (out2, cl2', co2') -> cl1' <= cl2 ->
  forall l, In l (out_labels out1) -> ~ In l (out_labels out2).
Proof.
  intros B1 B2 Hle l H1 H2.
  pose proof (build_labels_fresh _ _ _ _ _ _ _ B1 _ H1). pose proof (build_labels_fresh _ _ _ _ _ _ _ B2 _ H2). lia.
Qed.

Lemma renamed_defined s e rho (P : nat * lkind -> Prop) : forall bp,
  Forall (fun i => P (rho i)) (ids bp) -> forall co l k, In (OLab l k) (renamed s e rho bp co) -> P (l, k).
Proof.
  induction bp as [|b bp IH]; intros H co l k Hin; [contradiction|].
  apply Forall_app in H as [Hb H].
  destruct b as [code ps | id kk | code ps id kk]; cbn [renamed] in Hin; destruct Hin as [Hin|Hin]; try exact (IH H _ _ _ Hin).
  - destruct (is_return code); discriminate.
  - injection Hin as <- <-. rewrite <- surjective_pairing. exact (Forall_inv Hb).
  - discriminate.
Qed.

(* `return` leaves only the macro: the end label of the expansion is no copy of a blueprint label, so it stands exactly
   once, at the end, and the jumps that replace Return operations go there *)
Theorem end_label_only_at_end s bp cl co rho cl' :
  (forall i, In i (ids bp) -> S (S cl) < fst (rho i) <= cl') ->
  forall k, ~ In (OLab (S (S cl)) k) (renamed s (S (S cl)) rho bp co).
Proof.
  intros Hr k H. apply (renamed_defined _ _ _ (fun v => S (S cl) < fst v)) in H; [exact (Nat.lt_irrefl _ H)|].
  apply Forall_forall. intros i Hi. apply Hr, Hi.
Qed.

Lemma renamed_numbers s e rho : forall bp co, out_numbers (renamed s e rho bp co) = seq (S co) (count_ops bp).
Proof.
  induction bp as [|b bp IH]; intros co; [reflexivity|].
  destruct b as [code ps | id k | code ps id k]; cbn [renamed out_numbers flat_map numbers_of count_ops seq app].
  - destruct (is_return code); cbn [numbers_of app]; rewrite IH; reflexivity.
  - apply IH.
  - rewrite IH. reflexivity.
Qed.

(* the operations of an expansion are numbered consecutively from the counter on *)
Theorem build_numbers s bp cl co out cl' co' :
  build s bp cl co = (out, cl', co') -> out_numbers out = seq (S co) (count_ops bp) /\ co' = co + count_ops bp.
Proof.
  intros B. destruct (build_is_renaming s bp cl co) as (rho & cl1 & E & _).
  rewrite E in B. injection B as <- <- <-. split; [|reflexivity].
  unfold out_numbers. cbn [flat_map numbers_of app]. rewrite flat_map_app. cbn. rewrite app_nil_r. apply renamed_numbers.
Qed.

(* non-vacuity: a blueprint with a loop (label, jump back), a return and a variable *)
Definition ex_bp : list bitem :=
  [BLab 7 LPlain; BOp "a" [PConst "$x"]; BJmp "Branch" [PInt 1] 9 LPlain; BOp "Return" []; BLab 9 LPlain; BJmp "Jump" [] 7 LPlain].
Example ex_build :
  build [("$x"%string, PInt 5)] ex_bp 10 100 =
  ([OLab 11 (LStart 5); OLab 13 LPlain; OOp 101 "a" [PInt 5]; OJmp 102 "Branch" [PInt 1] 14; OJmp 103 "Jump" [] 12;
    OLab 14 LPlain; OJmp 104 "Jump" [] 13; OLab 12 LEnd], 14, 104).
Proof. vm_compute. reflexivity. Qed.

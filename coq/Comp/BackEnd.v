(* Entries of routines under a routine-wise filter ([entry_rel], [filtered_entries]; used by all three passes), and
   label resolution (LabelFinalizer's table + OpsLabelJumpToRemover) keeps the behaviour of every routine. *)
From ES Require Import Base Ssb.Cfg Ssb.Machine Ssb.EquivSound Ssb.Silent Comp.Passes Comp.PopSem Comp.Flat Comp.RemoveSem
  Comp.TableRight.

Definition entry_rel (R : nat -> nat -> Prop) (e1 e2 : option nat) : Prop :=
  match e1, e2 with
  | Some a, Some b => R a b
  | None, None => True
  | _, _ => False
  end.

Lemma entries_mono (R S : nat -> nat -> Prop) l1 l2 : (forall a b, R a b -> S a b) ->
  Forall2 (entry_rel R) l1 l2 -> Forall2 (entry_rel S) l1 l2.
Proof.
  intros H HF. induction HF as [|[a|] [b|] l1 l2 H1 _ IH]; constructor; try assumption. apply H, H1.
Qed.

Lemma entries_trans g1 g2 g3 l1 l2 : Forall2 (entry_rel (beh_eq g1 g2)) l1 l2 ->
  forall l3, Forall2 (entry_rel (beh_eq g2 g3)) l2 l3 -> Forall2 (entry_rel (beh_eq g1 g3)) l1 l3.
Proof.
  induction 1 as [|e1 e2 l1 l2 H12 HF IH]; intros l3 H23; inversion H23 as [|? e3 ? l3' H23' HF']; subst; constructor.
  - destruct e1 as [a|], e2 as [b|], e3 as [c|]; cbn [entry_rel] in *; try contradiction; try exact I.
    apply (beh_eq_trans g1 g2 g3 a b c H12 H23').
  - apply IH. exact HF'.
Qed.

Lemma phi_app_l {A B} (f : A -> option B) X Y : phi f (X ++ Y) (length X) = length (omap f X).
Proof. unfold phi. rewrite firstn_app, Nat.sub_diag, firstn_all, firstn_O, app_nil_r. reflexivity. Qed.

(* [pop_entries_of] and [entries_of] are this function at [pop] and [op]: the same fixpoint, so they convert *)
Definition entries_from {A} : list (list A) -> nat -> list (option nat) :=
  fix go rs g :=
    match rs with
    | [] => []
    | r :: rest => (match r with [] => None | _ => Some g end) :: go rest (g + length r)
    end.

(* Routines are transformed one by one: [ann r] is the annotated form of routine [r], of which [f] keeps the entries
   of [tr r].  Then the entry of every routine is carried to the entry of its image; [QE] is any property of the
   first entries of the routines, [X] what the induction has passed (the callers start with none). *)
Section FilteredEntries.
  Context {A B C E : Type} (ann : list A -> list C) (tr : list A -> list B) (f : C -> option E) (QE : C -> Prop).

  Lemma filtered_entries rs : forall X,
    (forall r, In r rs -> length (ann r) = length r /\ length (omap f (ann r)) = length (tr r) /\ (r <> [] -> tr r <> []) /\
                          forall c, nth_error (ann r) 0 = Some c -> QE c) ->
    let C1 := X ++ flat_map ann rs in
    Forall2 (entry_rel (fun a b => a <= length C1 /\ (forall c, nth_error C1 a = Some c -> QE c) /\ b = phi f C1 a))
      (entries_from rs (length X)) (entries_from (map tr rs) (length (omap f X))).
  Proof.
    induction rs as [|r rs IH]; intros X H C1; [constructor|].
    destruct (H r (or_introl eq_refl)) as (Hl & Ht & Hne & HQ). cbn [map entries_from]. constructor.
    - destruct r as [|x r'].
      { (* an empty routine: its image is empty, by the lengths *)
        revert Hl Ht. destruct (ann []), (tr []); cbn; intros; try discriminate; exact I. }
      specialize (Hne ltac:(discriminate)). destruct (tr (x :: r')); [contradiction|]. cbn [entry_rel].
      unfold C1. cbn [flat_map]. split; [rewrite app_length; lia|]. split.
      + intros c Hc. rewrite nth_error_app2, Nat.sub_diag, nth_error_app1 in Hc by (rewrite ?Hl; cbn [length]; lia). apply (HQ c Hc).
      + symmetry. apply phi_app_l.
    - specialize (IH (X ++ ann r) (fun r' Hr => H r' (or_intror Hr))).
      rewrite omap_app, !app_length, Hl, Ht, <- app_assoc in IH. exact IH.
  Qed.
End FilteredEntries.

(* OpsLabelJumpToRemover with any table that is right: every routine of the op list behaves like the corresponding
   routine of the pseudo code. *)
Theorem remove_preserves_entries fin t P' :
  remove_all t fin = Ok P' ->
  (forall r, In r fin -> shape_ok r = true /\ forallb pop_wf r = true) ->
  NoDup (map off (all_ops P')) ->
  table_right (concat fin) t ->
  (forall a, a <= S (length (concat fin)) -> exists o, reaches (cfg_of_pops fin) a o) ->
  Forall2 (entry_rel (beh_eq (cfg_of_pops fin) (cfg_of_ssb P'))) (pop_entries fin) (ssb_entries P').
Proof.
  intros Hrem Hshape Hoffs Htable Hterm.
  apply (entries_mono _ _ _ _ (remove_preserves_behaviour fin t P' Hrem Hshape Hoffs Htable Hterm)).
  (* the entries are related by [Rel] *)
  destruct (remove_all_omap _ _ _ Hrem) as [E Hres]. rewrite (f_equal ssb_entries E).
  eapply entries_mono;
    [|apply (filtered_entries (fun r => annotate_r pop_isctx r false) (omap (conv t)) (conv3 t) (fun _ => True) fin [])].
  - intros a b (Hle & _ & ->). right. split; [|reflexivity]. cbn [app] in Hle. fold (annotate pop_isctx fin) in Hle.
    rewrite annotate_length in Hle. exact Hle.
  - intros r Hr. destruct (Hshape r Hr) as [Hs Hw]. pose proof (proj1 (Forall_forall _ _) Hres r Hr) as Hj.
    split; [apply annotate_r_length|]. split; [|split; [|trivial]].
    + rewrite <- annotate_r_omap, annotate_r_length; auto. destruct r as [|[]]; trivial.
    + apply (conv_nonempty _ _ Hs Hj).
Qed.

Fixpoint nodup_nat (l : list nat) : bool :=
  match l with [] => true | x :: r => negb (existsb (Nat.eqb x) r) && nodup_nat r end.
Lemma nodup_nat_sound l : nodup_nat l = true -> NoDup l.
Proof. exact (nodupb_sound Nat.eqb Nat.eqb_refl l). Qed.
Fixpoint nodup_zb (l : list Z) : bool :=
  match l with [] => true | x :: r => negb (existsb (Z.eqb x) r) && nodup_zb r end.
Lemma nodup_zb_sound l : nodup_zb l = true -> NoDup l.
Proof. exact (nodupb_sound Z.eqb Z.eqb_refl l). Qed.

(* the premises as one boolean, evaluated on every captured compilation *)
Definition backend_ok (fin : list (list pop)) (P' : program) : bool :=
  forallb (fun r => shape_ok r && forallb pop_wf r) fin &&
  nodup_nat (labels_of (concat fin)) &&
  nodup_zb (map off (all_ops P')) &&
  negb (silent_cycle (cfg_of_pops fin)).

Lemma cfg_of_pops_length fin : length (cfg_of_pops fin) = S (S (length (concat fin))).
Proof. rewrite cfg_of_pops_flat, flat_cfg_length, annotate_length. reflexivity. Qed.

Lemma no_cycle_terminates rs : negb (silent_cycle (cfg_of_pops rs)) = true ->
  forall a, a <= S (length (concat rs)) -> exists o, reaches (cfg_of_pops rs) a o.
Proof. intros H a _. apply no_silent_cycle_reaches, negb_true_iff, H. Qed.

(* The two passes together, for the table LabelFinalizer computes. *)
Theorem label_resolution_preserves_b rs fin t P' :
  finalize rs = (fin, t) -> remove_all t fin = Ok P' -> backend_ok fin P' = true ->
  Forall2 (entry_rel (beh_eq (cfg_of_pops fin) (cfg_of_ssb P'))) (pop_entries fin) (ssb_entries P').
Proof.
  intros Hfin Hrem Hok. unfold backend_ok in Hok. apply andb_prop in Hok as [Hok Hcyc].
  apply andb_prop in Hok as [Hok Hoffs]. apply andb_prop in Hok as [Hshape Hlab].
  assert (Hshape' : forall r, In r fin -> shape_ok r = true /\ forallb pop_wf r = true)
    by (intros r Hr; apply andb_true_iff, (forallb_In _ _ _ Hshape Hr)).
  apply (remove_preserves_entries fin t P' Hrem Hshape').
  - apply nodup_zb_sound. exact Hoffs.
  - apply (finalize_table_right rs fin t Hfin (nodup_nat_sound _ Hlab)). intros r Hr. apply (Hshape' r Hr).
  - apply no_cycle_terminates, Hcyc.
Qed.

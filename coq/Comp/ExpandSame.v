(* All expansions of a macro with the same arguments are the same code: wherever two expansions are built (whatever the
   label counter and the operation counter say at the time), their control-flow graphs are equal node for node. *)
From ES Require Import Base Ssb.Param Ssb.Machine Comp.Passes Comp.PopSem Comp.MacroBuild
  Comp.MacroBuildProofs Comp.RenameSem.

Definition pop_of_oitem (o : oitem) : pop :=
  match o with
  | OOp n c ps => POp (mkOp (Z.of_nat n) c ps)
  | OLab id _ => PLabel id
  | OJmp n c ps id => PJump (mkOp (Z.of_nat n) c ps) id
  end.

(* equal up to the numbers of the operations; this is [pop_rel eq] written out, and converts to it *)
Definition same_code (x y : pop) : Prop :=
  match x, y with
  | POp o, POp o' => code o = code o' /\ params o = params o'
  | PLabel l, PLabel l' => l = l'
  | PJump o l, PJump o' l' => code o = code o' /\ params o = params o' /\ l = l'
  | _, _ => False
  end.

Lemma cfg_of_pops_same r r' : Forall2 same_code r r' -> cfg_of_pops [r] = cfg_of_pops [r'].
Proof.
  intros H. apply (related_same_cfg eq); [intros a a' b b' -> ->; tauto | constructor; [exact H | constructor]].
Qed.

(* the labels Comp/RenameSem.v speaks of are the labels the theorems about [build] speak of *)
Lemma pop_labels_of_oitems out : flat_map pop_labels (map pop_of_oitem out) = out_labels out.
Proof. induction out as [|o out IH]; [reflexivity|]. destruct o; cbn; rewrite ?IH; reflexivity. Qed.

Lemma renamed_rel (R : nat -> nat -> Prop) s e1 e2 rho1 rho2 : R e1 e2 -> forall bp,
  Forall (fun i => R (fst (rho1 i)) (fst (rho2 i))) (ids bp) -> forall co1 co2,
  Forall2 (pop_rel R) (map pop_of_oitem (renamed s e1 rho1 bp co1)) (map pop_of_oitem (renamed s e2 rho2 bp co2)).
Proof.
  intros He. induction bp as [|b bp IH]; intros H co1 co2; [constructor|].
  apply Forall_app in H as [Hb H].
  destruct b as [code ps | id k | code ps id k]; cbn [renamed map]; (constructor; [|apply IH, H]).
  - destruct (is_return code); cbn; auto.
  - exact (Forall_inv Hb).
  - cbn. repeat split. exact (Forall_inv Hb).
Qed.

(* the labels of the two expansions correspond one to one: the two copies of each blueprint label (second disjunct of R),
   start to start and end to end (first disjunct: whatever is not above the end label is shifted by the difference of
   the two label counters; both renamings map above their end labels, so the two parts do not meet) *)
Theorem expansions_are_the_same_code s bp cl1 co1 cl2 co2 out1 out2 a1 b1 a2 b2 :
  build s bp cl1 co1 = (out1, a1, b1) -> build s bp cl2 co2 = (out2, a2, b2) ->
  cfg_of_pops [map pop_of_oitem out1] = cfg_of_pops [map pop_of_oitem out2].
Proof.
  intros B1 B2.
  destruct (build_is_renaming s bp cl1 co1) as (rho1 & c1 & E1 & _ & Hr1 & I1 & _).
  destruct (build_is_renaming s bp cl2 co2) as (rho2 & c2 & E2 & _ & Hr2 & I2 & _).
  rewrite E1 in B1. rewrite E2 in B2. injection B1 as <- _ _. injection B2 as <- _ _.
  set (R a b := (a <= S (S cl1) /\ a + cl2 = b + cl1) \/ exists i, In i (ids bp) /\ a = fst (rho1 i) /\ b = fst (rho2 i)).
  apply (related_same_cfg R).
  - intros a a' b b' [Ha|(i & Hi & -> & ->)] [Hb|(j & Hj & -> & ->)].
    + lia.
    + specialize (Hr1 _ Hj). specialize (Hr2 _ Hj). lia.
    + specialize (Hr1 _ Hi). specialize (Hr2 _ Hi). lia.
    + split; intros E; [apply I1 in E | apply I2 in E]; subst; trivial.
  - assert (He : R (S (S cl1)) (S (S cl2))) by (left; lia).
    constructor; [|constructor]. cbn [map]. constructor; [left; lia|].
    rewrite !map_app. apply Forall2_app.
    + apply renamed_rel; [exact He|]. apply Forall_forall. intros i Hi. right. exists i. repeat split. exact Hi.
    + constructor; [exact He | constructor].
Qed.

(* non-vacuity: the blueprint of Comp/MacroBuildProofs.v (a loop, a return, a variable) expanded at two different states
   of the counters - different labels, different operation numbers, one graph *)
Example ex_two_expansions :
  let o1 := fst (fst (build [("$x"%string, PInt 5)] ex_bp 10 100)) in
  let o2 := fst (fst (build [("$x"%string, PInt 5)] ex_bp 40 7)) in
  out_labels o1 <> out_labels o2 /\ out_numbers o1 <> out_numbers o2 /\
  cfg_of_pops [map pop_of_oitem o1] = cfg_of_pops [map pop_of_oitem o2] /\
  length (cfg_of_pops [map pop_of_oitem o1]) = 10.
Proof.
  intros o1 o2. split; [|split; [|split]].
  - vm_compute. discriminate.
  - vm_compute. discriminate.
  - vm_compute. reflexivity.
  - vm_compute. reflexivity.
Qed.

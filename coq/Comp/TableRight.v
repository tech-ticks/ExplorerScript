(* The label table LabelFinalizer builds maps every label of its output to the offset of the first op after it
   ([finalize_table_right]).  The table is [assign_spec] of the whole output ([Closed.finalize_all_eq]); what it holds for
   a label is the label's [label_target] ([finalize_table_target]), a recursive reading of "the first op after the place
   where it is defined", which [table_right] puts with [find_label] and [skipn] ([find_label_target]).
   [labels_of] and the lemmas about it and [find_label] are also what the other pass files use. *)
From ES Require Import Base Comp.Passes Comp.Closed Comp.PopSem Comp.RemoveSem.

Lemma lookup_assign l ws z t :
  lookup_label l (assign ws z t) = if existsb (Nat.eqb l) ws then Some z else lookup_label l t.
Proof.
  revert t. induction ws as [|w ws IH]; intro t; [reflexivity|].
  cbn [assign existsb]. rewrite IH. cbn [lookup_label].
  destruct (existsb (Nat.eqb l) ws); [rewrite orb_true_r; reflexivity|]. rewrite orb_false_r.
  rewrite Nat.eqb_sym. reflexivity.
Qed.

Fixpoint labels_of (ps : list pop) : list nat :=
  match ps with [] => [] | PLabel l :: r => l :: labels_of r | _ :: r => labels_of r end.

Lemma labels_of_In l ps : In l (labels_of ps) <-> In (PLabel l) ps.
Proof.
  induction ps as [|x ps [IH1 IH2]]; [reflexivity|].
  destruct x as [o|l'|o l']; cbn [labels_of In].
  - split; [intros H; right; exact (IH1 H) | intros [E|H]; [discriminate | exact (IH2 H)]].
  - split; intros [E|H].
    + left; congruence.
    + right; exact (IH1 H).
    + left; congruence.
    + right; exact (IH2 H).
  - split; [intros H; right; exact (IH1 H) | intros [E|H]; [discriminate | exact (IH2 H)]].
Qed.

Lemma labels_of_app a b : labels_of (a ++ b) = labels_of a ++ labels_of b.
Proof. induction a as [|[] a IH]; cbn [app labels_of]; rewrite ?IH; reflexivity. Qed.

Lemma find_label_None l ps : forall s, ~ In l (labels_of ps) -> find_label l ps s = None.
Proof.
  intros s H. destruct (find_label l ps s) as [i|] eqn:F; [|reflexivity].
  destruct H. apply labels_of_In, (nth_error_In _ (i - s)), (find_label_lt _ _ _ _ F).
Qed.

Lemma find_label_unique l ps : forall s i, NoDup (labels_of ps) -> nth_error ps i = Some (PLabel l) ->
  find_label l ps s = Some (s + i).
Proof.
  induction ps as [|x ps IH]; intros s [|i] Hnd Hn; try discriminate; rewrite find_label_cons.
  - injection Hn as ->. cbn [defines]. rewrite Nat.eqb_refl, Nat.add_0_r. reflexivity.
  - cbn [nth_error] in Hn. rewrite <- Nat.add_succ_comm. destruct (defines l x) eqn:E.
    + destruct x as [|l'|]; try discriminate. apply Nat.eqb_eq in E. subst l'.
      destruct (proj1 (proj1 (NoDup_cons_iff l _) Hnd)). apply labels_of_In, (nth_error_In _ _ Hn).
    + apply IH; [|exact Hn]. destruct x; [exact Hnd | exact (proj2 (proj1 (NoDup_cons_iff _ _) Hnd)) | exact Hnd].
Qed.

Fixpoint label_target (l : nat) (ps : list pop) : option Z :=
  match ps with
  | [] => None
  | x :: rest => if defines l x then next_off rest else label_target l rest
  end.

Lemma find_label_target l ps : forall s,
  match find_label l ps s with
  | Some i => next_off (skipn (i - s) ps) = label_target l ps
  | None => label_target l ps = None
  end.
Proof.
  induction ps as [|x ps IH]; intro s; [reflexivity|]. rewrite find_label_cons. cbn [label_target].
  destruct (defines l x) eqn:E.
  - rewrite Nat.sub_diag. destruct x; [discriminate | reflexivity | discriminate].
  - specialize (IH (S s)). destruct (find_label l ps (S s)) as [i|] eqn:F; [|exact IH].
    destruct (find_label_lt _ _ _ _ F) as [Hr _].
    change (i - s) with (S i - S s). rewrite (Nat.sub_succ_l _ _ (proj1 Hr)). exact IH.
Qed.

Lemma label_target_None l ps : ~ In l (labels_of ps) -> label_target l ps = None.
Proof. intro H. pose proof (find_label_target l ps 0) as Hn. rewrite (find_label_None l ps 0 H) in Hn. exact Hn. Qed.

(* A label that is waiting gets the offset of the next op, one defined in [ps] its target; where there is no such op the
   table answers what it answered before.  [NoDup]: were a label defined twice, the table would hold the later offset
   in front, [label_target] gives the first. *)
Lemma assign_spec_lookup l ps : forall w0 t0, NoDup (w0 ++ labels_of ps) ->
  lookup_label l (snd (assign_spec ps w0 t0)) =
  match (if existsb (Nat.eqb l) w0 then next_off ps else label_target l ps) with
  | Some z => Some z
  | None => lookup_label l t0
  end.
Proof.
  induction ps as [|x ps IH]; intros w0 t0 Hnd.
  - destruct (existsb (Nat.eqb l) w0); reflexivity.
  - destruct (is_label x) eqn:Ex.
    + destruct x as [|l'|]; try discriminate. cbn [assign_spec labels_of next_off label_target defines] in *.
      rewrite IH, existsb_app by (rewrite <- app_assoc; exact Hnd).
      cbn [existsb]. rewrite orb_false_r, (Nat.eqb_sym l l'). destruct (existsb (Nat.eqb l) w0); reflexivity.
    + assert (E : assign_spec (x :: ps) w0 t0 = assign_spec ps [] (assign w0 (pop_off x) t0) /\
                  next_off (x :: ps) = Some (pop_off x) /\ labels_of (x :: ps) = labels_of ps /\
                  label_target l (x :: ps) = label_target l ps)
        by (destruct x; [|discriminate|]; repeat split).
      destruct E as (-> & -> & El & ->). rewrite El in Hnd.
      destruct (NoDup_app_inv _ _ Hnd) as [Hnd' Hdis].
      rewrite (IH [] _ Hnd'), lookup_assign. cbn [existsb].
      destruct (existsb (Nat.eqb l) w0) eqn:Hw; [|reflexivity].
      (* [l] is waiting, so it is not defined in [ps] and has no target there *)
      apply (existsb_eqb_In Nat.eqb Nat.eqb_eq) in Hw. rewrite (label_target_None l ps (Hdis l Hw)). reflexivity.
Qed.

(* without any condition on the shape: a label no op follows has no target and no entry *)
Theorem finalize_table_target rs fin t l :
  finalize rs = (fin, t) -> NoDup (labels_of (concat fin)) -> lookup_label l t = label_target l (concat fin).
Proof.
  unfold finalize. rewrite finalize_all_eq. intros [= -> <-] Hnd.
  rewrite (assign_spec_lookup l _ [] _ Hnd). cbn [existsb lookup_label]. destruct (label_target l (concat fin)); reflexivity.
Qed.

Lemma next_off_app a b : next_off a <> None -> next_off (a ++ b) = next_off a.
Proof.
  induction a as [|x a IH]; intro H; [contradiction|]. destruct x as [o|l|o l]; cbn [app next_off] in *; try reflexivity.
  apply IH. exact H.
Qed.

Lemma shape_next r : shape_ok r = true -> forall j, j < length r -> next_off (skipn j r) <> None.
Proof.
  induction r as [|x r IH]; intros Hs j Hj; [cbn in Hj; lia|].
  destruct (shape_ok_cons _ _ Hs) as [Hr _]. destruct j as [|j]; [|apply (IH Hr), Nat.succ_lt_mono, Hj].
  cbn [skipn next_off]. destruct x as [o|l|o l]; try discriminate.
  (* a label is not the last element *)
  destruct r; [discriminate Hs | apply (IH Hr 0), Nat.lt_0_succ].
Qed.

Lemma flat_next rs : (forall r, In r rs -> shape_ok r = true) ->
  forall i, i < length (concat rs) -> next_off (skipn i (concat rs)) <> None.
Proof.
  induction rs as [|r rs IH]; intros Hs i Hi; [cbn in Hi; lia|].
  cbn [concat] in *. rewrite skipn_app. rewrite app_length in Hi.
  destruct (Nat.lt_ge_cases i (length r)) as [Hlt|Hge].
  - rewrite next_off_app; apply shape_next; try assumption; apply Hs; left; reflexivity.
  - rewrite (skipn_all2 r) by exact Hge. cbn [app]. apply IH; [intros r' Hr; apply Hs; right; exact Hr | lia].
Qed.

Theorem finalize_table_right rs fin t :
  finalize rs = (fin, t) ->
  NoDup (labels_of (concat fin)) ->
  (forall r, In r fin -> shape_ok r = true) ->
  table_right (concat fin) t.
Proof.
  intros H Hnd Hs l. rewrite (finalize_table_target rs fin t l H Hnd).
  pose proof (find_label_target l (concat fin) 0) as Ht. destruct (find_label l (concat fin) 0) as [i|] eqn:F; [|exact Ht].
  rewrite Nat.sub_0_r in Ht. rewrite <- Ht. destruct (find_label_lt _ _ _ _ F) as [Hr _].
  pose proof (flat_next fin Hs i (proj2 Hr)) as Hn.
  destruct (next_off (skipn i (concat fin))) as [z|]; [exists z; split; reflexivity | contradiction].
Qed.

(* an expansion defines each of its labels once (if the blueprint does), so the pseudo code that holds any number of
   expansions still has unique label definitions - a premise of the theorems about the label passes *)
From ES Require Import Base Comp.MacroBuild Comp.MacroBuildProofs.

Definition def_id (b : bitem) : list nat := match b with BLab id _ => [id] | _ => [] end.
Definition def_ids (bp : list bitem) : list nat := flat_map def_id bp.
Definition out_def (o : oitem) : list nat := match o with OLab id _ => [id] | _ => [] end.
Definition out_defs (out : list oitem) : list nat := flat_map out_def out.

Lemma def_ids_incl bp : incl (def_ids bp) (ids bp).
Proof.
  intros a Ha. apply in_flat_map in Ha. destruct Ha as (b & Hb & Ha). apply in_flat_map. exists b.
  split; [exact Hb | destruct b; [destruct Ha | exact Ha | destruct Ha]].
Qed.

Lemma renamed_defs s e rho : forall bp co, out_defs (renamed s e rho bp co) = map (fun i => fst (rho i)) (def_ids bp).
Proof.
  induction bp as [|b bp IH]; intros co; [reflexivity|].
  destruct b as [code ps | id k | code ps id k]; cbn [renamed out_defs flat_map out_def def_ids def_id app map].
  - destruct (is_return code); cbn [out_def app]; apply IH.
  - exact (f_equal (cons _) (IH co)).
  - apply IH.
Qed.

Lemma out_defs_app a b : out_defs (a ++ b) = out_defs a ++ out_defs b.
Proof. unfold out_defs. apply flat_map_app. Qed.

Theorem expansion_defines_each_label_once s bp cl co out cl' co' :
  build s bp cl co = (out, cl', co') -> NoDup (def_ids bp) -> NoDup (out_defs out).
Proof.
  intros B Hnd. destruct (build_is_renaming s bp cl co) as (rho & c1 & E & _ & Hr & I & _).
  rewrite E in B. injection B as <- _ _.
  change (out_defs (?x :: ?r)) with (out_def x ++ out_defs r).
  rewrite out_defs_app, renamed_defs. cbn [out_defs flat_map out_def app].
  assert (Habove : forall x, In x (map (fun i => fst (rho i)) (def_ids bp)) -> S (S cl) < x).
  { intros x Hx. apply in_map_iff in Hx. destruct Hx as (i & <- & Hi). exact (proj1 (Hr _ (def_ids_incl _ _ Hi))). }
  constructor.
  - intros Hin. apply in_app_or in Hin. destruct Hin as [Hin|[Hin|[]]].
    + exact (Nat.nlt_succ_diag_l _ (Habove _ Hin)).
    + exact (Nat.neq_succ_diag_l _ Hin).
  - (* the end label comes last: NoDup (l ++ [a]) if NoDup l and a is not in l *)
    apply (NoDup_Add (Add_app _ _ [])). rewrite app_nil_r. split; [|intros Hin; exact (Nat.lt_irrefl _ (Habove _ Hin))].
    apply NoDup_map_inj_on; [|exact Hnd]. intros a b Ha Hb. apply I; apply def_ids_incl; assumption.
Qed.

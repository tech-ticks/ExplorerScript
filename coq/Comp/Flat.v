(* Flat descriptions of the two graph constructions (pseudo code and op lists): one annotated entry per
   element - (element, last of its routine, previous element is a context op) - and the node of entry i. *)
From ES Require Import Base Ssb.Cfg Ssb.Machine Comp.Passes Comp.PopSem.

Section Annot.
  Context {A : Type}.
  Variable isctx : A -> bool.

  Fixpoint annotate_r (r : list A) (pc : bool) : list (A * bool * bool) :=
    match r with
    | [] => []
    | x :: rest => (x, match rest with [] => true | _ => false end, pc) :: annotate_r rest (isctx x)
    end.
  Definition annotate (rs : list (list A)) : list (A * bool * bool) := flat_map (fun r => annotate_r r false) rs.

  Lemma annotate_r_length r : forall pc, length (annotate_r r pc) = length r.
  Proof. induction r as [|x r IH]; intro pc; cbn [annotate_r length]; [reflexivity | rewrite IH; reflexivity]. Qed.

  Lemma annotate_length rs : length (annotate rs) = length (concat rs).
  Proof. apply (flat_map_length_concat (fun r => annotate_r r false)). intro r. apply annotate_r_length. Qed.

  Lemma annotate_r_fst r : forall pc, map (fun e => fst (fst e)) (annotate_r r pc) = r.
  Proof. induction r as [|x r IH]; intro pc; cbn [annotate_r map fst]; [reflexivity | rewrite IH; reflexivity]. Qed.

  Lemma annotate_fst rs : map (fun e => fst (fst e)) (annotate rs) = concat rs.
  Proof.
    induction rs as [|r rs IH]; [reflexivity|]. unfold annotate in *. cbn [flat_map concat].
    rewrite map_app, annotate_r_fst, IH. reflexivity.
  Qed.

  Lemma annotate_nth rs a e : nth_error (annotate rs) a = Some e -> nth_error (concat rs) a = Some (fst (fst e)).
  Proof. intro H. rewrite <- annotate_fst. apply (map_nth_error (fun e => fst (fst e)) _ _ H). Qed.

  Lemma annotate_r_In r pc0 x last pc : In (x, last, pc) (annotate_r r pc0) -> In x r.
  Proof. intro H. rewrite <- (annotate_r_fst r pc0). apply (in_map (fun e => fst (fst e)) _ _ H). Qed.

  Lemma annotate_r_not_last r : forall pc0 j x pc, nth_error (annotate_r r pc0) j = Some (x, false, pc) -> S j < length r.
  Proof.
    induction r as [|y r IH]; intros pc0 [|j] x pc H; try discriminate; cbn [annotate_r nth_error length] in *.
    - destruct r; [discriminate | apply (proj1 (Nat.succ_lt_mono _ _)), Nat.lt_0_succ].
    - apply (proj1 (Nat.succ_lt_mono _ _)), (IH _ _ _ _ H).
  Qed.

  Lemma annotate_r_snoc body x : forall pc0, exists pc, In (x, true, pc) (annotate_r (body ++ [x]) pc0).
  Proof.
    induction body as [|y body IH]; intro pc0; [eexists; left; reflexivity|].
    destruct (IH (isctx y)) as [pc H]. exists pc. right. exact H.
  Qed.
End Annot.

Fixpoint mapi_from {A B} (g : nat) (f : nat -> A -> B) (l : list A) : list B :=
  match l with [] => [] | x :: r => f g x :: mapi_from (S g) f r end.

Lemma mapi_from_app {A B} (f : nat -> A -> B) l1 : forall g l2,
  mapi_from g f (l1 ++ l2) = mapi_from g f l1 ++ mapi_from (g + length l1) f l2.
Proof.
  induction l1 as [|x l1 IH]; intros g l2.
  - cbn [app mapi_from length]. rewrite Nat.add_0_r. reflexivity.
  - cbn [app mapi_from length]. rewrite IH, Nat.add_succ_comm. reflexivity.
Qed.

Lemma mapi_from_length {A B} (f : nat -> A -> B) l : forall g, length (mapi_from g f l) = length l.
Proof. induction l as [|x l IH]; intro g; cbn [mapi_from length]; [reflexivity | rewrite IH; reflexivity]. Qed.

Lemma mapi_from_nth {A B} (f : nat -> A -> B) l : forall g i,
  nth_error (mapi_from g f l) i = match nth_error l i with Some x => Some (f (g + i) x) | None => None end.
Proof.
  induction l as [|x l IH]; intros g i; [destruct i; reflexivity|].
  destruct i as [|i]; cbn [mapi_from nth_error]; [rewrite Nat.add_0_r; reflexivity|].
  rewrite IH. replace (S g + i) with (g + S i) by lia. reflexivity.
Qed.

Definition pop_node (all : list pop) (fall stopn : nat) (i : nat) (e : pop * bool * bool) : node :=
  let '(x, last, pc) := e in node_of_pop all stopn x (if last then fall else S i) pc.
Definition op_node (all : list op) (fall stopn : nat) (i : nat) (e : op * bool * bool) : node :=
  let '(o, last, pc) := e in node_of_op all stopn o (if last then fall else S i) pc.

Definition pop_isctx (x : pop) : bool := is_ctx (pname x).
Definition op_isctx (o : op) : bool := is_ctx (code o).

Lemma nodes_of_pops_flat all fall stopn r : forall g pc,
  nodes_of_pops all fall stopn r g pc = mapi_from g (pop_node all fall stopn) (annotate_r pop_isctx r pc).
Proof.
  induction r as [|x r IH]; intros g pc; [reflexivity|].
  cbn [nodes_of_pops annotate_r mapi_from pop_node]. rewrite IH. destruct r; reflexivity.
Qed.

Lemma nodes_of_pop_program_flat all fall stopn rs : forall g,
  nodes_of_pop_program all fall stopn rs g = mapi_from g (pop_node all fall stopn) (annotate pop_isctx rs).
Proof.
  induction rs as [|r rs IH]; intro g; [reflexivity|].
  unfold annotate. cbn [nodes_of_pop_program flat_map]. rewrite mapi_from_app, annotate_r_length.
  rewrite nodes_of_pops_flat. f_equal. apply IH.
Qed.

Lemma nodes_of_routine_flat all fall stopn r : forall g pc,
  nodes_of_routine all fall stopn r g pc = mapi_from g (op_node all fall stopn) (annotate_r op_isctx r pc).
Proof.
  induction r as [|x r IH]; intros g pc; [reflexivity|].
  cbn [nodes_of_routine annotate_r mapi_from op_node]. rewrite IH. destruct r; reflexivity.
Qed.

Lemma nodes_of_program_flat all fall stopn P : forall g,
  nodes_of_program all fall stopn P g = mapi_from g (op_node all fall stopn) (annotate op_isctx P).
Proof.
  induction P as [|r P IH]; intro g; [reflexivity|].
  unfold annotate. cbn [nodes_of_program flat_map]. rewrite mapi_from_app, annotate_r_length.
  rewrite nodes_of_routine_flat. f_equal. apply IH.
Qed.

(* Both constructions give a graph of this form: one node per entry, then the implicit return and the stop node.
   [nd fall stop i e] is the node of entry [e] at place [i] ([pop_node], [op_node]). *)
Definition flat_cfg {E} (nd : nat -> nat -> nat -> E -> node) (N : nat) (L : list E) : cfg :=
  mapi_from 0 (nd N (S N)) L ++ [implicit_return (S N); NStop].

Section FlatCfg.
  Context {E : Type} (nd : nat -> nat -> nat -> E -> node) (N : nat) (L : list E).

  Lemma flat_cfg_nth a e : nth_error L a = Some e -> nth_error (flat_cfg nd N L) a = Some (nd N (S N) a e).
  Proof.
    intro H. unfold flat_cfg. rewrite nth_error_app1.
    - rewrite mapi_from_nth, H. reflexivity.
    - rewrite mapi_from_length. apply nth_error_Some. congruence.
  Qed.

  Lemma flat_cfg_length : length (flat_cfg nd N L) = S (S (length L)).
  Proof. unfold flat_cfg. rewrite app_length, mapi_from_length, Nat.add_comm. reflexivity. Qed.

  Hypothesis HN : length L = N.

  Lemma flat_cfg_fall : nth_error (flat_cfg nd N L) N = Some (implicit_return (S N)).
  Proof. unfold flat_cfg. rewrite nth_error_app2; rewrite mapi_from_length, HN; [rewrite Nat.sub_diag; reflexivity | lia]. Qed.

  Lemma flat_cfg_stop : nth_error (flat_cfg nd N L) (S N) = Some NStop.
  Proof. unfold flat_cfg. rewrite nth_error_app2; rewrite mapi_from_length, HN; [replace (S N - N) with 1 by lia; reflexivity | lia]. Qed.
End FlatCfg.

Lemma cfg_of_pops_flat rs :
  cfg_of_pops rs = flat_cfg (pop_node (concat rs)) (length (concat rs)) (annotate pop_isctx rs).
Proof. unfold cfg_of_pops, flat_cfg. rewrite nodes_of_pop_program_flat. reflexivity. Qed.

Lemma cfg_of_ssb_flat P :
  cfg_of_ssb P = flat_cfg (op_node (all_ops P)) (length (all_ops P)) (annotate op_isctx P).
Proof. unfold cfg_of_ssb, flat_cfg. rewrite nodes_of_program_flat. reflexivity. Qed.

(* The erasure theorem of Comp/EraseSem.v said of the routine entries, and LabelFinalizer's jump removal as an instance
   of it: the pseudo code it returns behaves like the pseudo code it was given. *)
From ES Require Import Base Ssb.Cfg Ssb.Tables Ssb.Machine Ssb.Silent Comp.Passes Comp.PopSem Comp.Flat
  Comp.Closed Comp.TableRight Comp.EraseSem Comp.BackEnd.

Theorem erase_preserves_entries rm rs :
  (forall x rest, rm x rest = true -> exists o l, x = PJump o l /\ is_jump (code o) = true /\ region rm l rest) ->
  (forall r, In r rs -> shape2 r = true) ->
  NoDup (labels_of (concat rs)) ->
  (forall o l, In (PJump o l) (concat rs) -> find_label l (concat rs) 0 <> None) ->
  (forall a, a <= S (length (concat rs)) -> exists o, reaches (cfg_of_pops rs) a o) ->
  Forall2 (entry_rel (beh_eq (cfg_of_pops rs) (cfg_of_pops (map (kfilter rm) rs))))
    (pop_entries rs) (pop_entries (map (kfilter rm) rs)).
Proof.
  intros rm_spec Hshape Hlab Hdef Hterm.
  apply (entries_mono _ _ _ _ (erase_preserves_behaviour rm rm_spec rs Hshape Hlab Hdef Hterm)).
  (* the entries are related by [ERel] *)
  eapply entries_mono; [|apply (filtered_entries with_rests (kfilter rm) (keep3 rm) (fun _ => True) rs [])].
  - intros a b (Hle & _ & ->). cbn [app] in Hle |- *. rewrite (flat_map_length_concat _ _ with_rests_length) in Hle.
    right. split; [exact Hle | rewrite with_rests_flat; reflexivity].
  - intros r Hr. split; [apply with_rests_length|]. split; [|split; [|trivial]].
    + unfold with_rests. rewrite <- (annotate_r_kfilter rm rm_spec), annotate_r_length; auto.
      destruct r; trivial.
    + apply (kfilter_nonempty rm rm_spec).
Qed.

Lemma labels_after0_sub l r : existsb (Nat.eqb l) (labels_after0 r) = true -> existsb (Nat.eqb l) (labels_after r) = true.
Proof.
  induction r as [|x r IH]; [discriminate|]. destruct x as [o|l'|o l']; cbn [labels_after0 labels_after]; try discriminate.
  cbn [existsb]. intro H. apply orb_true_iff in H. apply orb_true_iff. destruct H as [H|H]; [left; exact H | right; apply IH; exact H].
Qed.

Lemma labels_after_region l rest : existsb (Nat.eqb l) (labels_after rest) = true -> region finalizer_removes l rest.
Proof.
  induction rest as [|x r IH]; [discriminate|]. destruct x as [o|l'|o l']; cbn [labels_after]; try discriminate.
  - cbn [existsb]. intro H. apply orb_true_iff in H. destruct H as [H|H].
    + apply Nat.eqb_eq in H. subst l'. apply rg_here.
    + apply rg_label. apply IH. exact H.
  - destruct (String.eqb (code o) OP_JUMP && existsb (Nat.eqb l') (labels_after0 r)) eqn:E; [|discriminate].
    intro H. apply rg_removed; [|apply IH; exact H].
    apply andb_prop in E as [E1 E2]. unfold finalizer_removes, is_plain_jump. rewrite E1. cbn [andb].
    apply labels_after0_sub. exact E2.
Qed.

Lemma finalizer_removes_spec x rest : finalizer_removes x rest = true ->
  exists o l, x = PJump o l /\ is_jump (code o) = true /\ region finalizer_removes l rest.
Proof.
  destruct x as [o|l|o l]; cbn [finalizer_removes]; try discriminate. intro H. apply andb_prop in H as [H1 H2].
  exists o, l. split; [reflexivity|]. split; [exact H1 | apply labels_after_region; exact H2].
Qed.

(* the two are the same fixpoint, so they convert *)
Lemma finalizer_keeps_kfilter : finalizer_keeps = kfilter finalizer_removes.
Proof. reflexivity. Qed.

Definition jumps_defined (rs : list (list pop)) : bool :=
  forallb (fun x => match x with PJump _ l => match find_label l (concat rs) 0 with Some _ => true | None => false end | _ => true end)
          (concat rs).

Lemma jumps_defined_sound rs : jumps_defined rs = true ->
  forall o l, In (PJump o l) (concat rs) -> find_label l (concat rs) 0 <> None.
Proof.
  unfold jumps_defined. intros H o l Hin. apply (forallb_In _ _ _ H) in Hin. cbn in Hin.
  destruct (find_label l (concat rs) 0); discriminate.
Qed.

Definition finalize_ok (rs : list (list pop)) : bool :=
  forallb (shape2) rs && nodup_nat (labels_of (concat rs)) && jumps_defined rs && negb (silent_cycle (cfg_of_pops rs)).

(* LabelFinalizer returns pseudo code that behaves like its input, routine by routine *)
Theorem finalize_preserves rs fin t :
  finalize rs = (fin, t) -> finalize_ok rs = true ->
  Forall2 (entry_rel (beh_eq (cfg_of_pops rs) (cfg_of_pops fin))) (pop_entries rs) (pop_entries fin).
Proof.
  unfold finalize. rewrite finalize_all_eq, finalizer_keeps_kfilter. intros [= <- _] Hok.
  unfold finalize_ok in Hok. apply andb_prop in Hok as [Hok Hcyc]. apply andb_prop in Hok as [Hok Hdef].
  apply andb_prop in Hok as [Hshape Hlab]. pose proof (fun r => forallb_In shape2 rs r Hshape) as Hshape'.
  apply (erase_preserves_entries _ rs finalizer_removes_spec Hshape' (nodup_nat_sound _ Hlab) (jumps_defined_sound _ Hdef)
           (no_cycle_terminates _ Hcyc)).
Qed.

(* LabelFinalizer and OpsLabelJumpToRemover together: from the pseudo code strip_last_label hands over to the
   final op list *)
Theorem finalize_and_remove_preserve rs fin t P' :
  finalize rs = (fin, t) -> remove_all t fin = Ok P' ->
  finalize_ok rs = true -> backend_ok fin P' = true ->
  Forall2 (entry_rel (beh_eq (cfg_of_pops rs) (cfg_of_ssb P'))) (pop_entries rs) (ssb_entries P').
Proof.
  intros Hfin Hrem Hok1 Hok2.
  apply (entries_trans _ (cfg_of_pops fin) _ _ (pop_entries fin)).
  - apply (finalize_preserves rs fin t Hfin Hok1).
  - apply (label_resolution_preserves_b rs fin t P' Hfin Hrem Hok2).
Qed.

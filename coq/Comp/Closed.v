(* Closedness of compilation results (C03): definition, boolean checker, and the theorem that the
   label passes produce closed programs.  What LabelFinalizer computes is said here in full ([finalize_all_eq]: routine
   by routine the output is what [finalizer_keeps] leaves, the table a function [assign_spec] of the output alone);
   Comp/TableRight.v and Comp/FinalizeSem.v start from it. *)
From ES Require Import Base Ssb.Param Ssb.Machine Comp.Passes Comp.StripShape.

Definition last_param (o : op) : option param := last (map Some (params o)) None.

Definition has_off (P : program) (z : Z) : Prop := exists o, In o (all_ops P) /\ off o = z.

Fixpoint prefix_b (p s : string) : bool :=
  match p, s with
  | EmptyString, _ => true
  | String a p', String b s' => Ascii.eqb a b && prefix_b p' s'
  | _, _ => false
  end.
Definition is_pseudo_name (c : string) : bool := prefix_b "ES_" c.

Record Closed (P : program) : Prop := {
  cl_unique : NoDup (map off (all_ops P));
  cl_targets : forall o idx, In o (all_ops P) -> jump_index (code o) = Some idx ->
               exists z, last_param o = Some (PInt z) /\ has_off P z;
  cl_no_pseudo : forall o, In o (all_ops P) -> is_pseudo_name (code o) = false
}.

(* executable checker, applied to real compiler output *)
Fixpoint nodup_z (l : list Z) : bool :=
  match l with [] => true | x :: r => negb (existsb (Z.eqb x) r) && nodup_z r end.

Definition op_closed_b (all : list op) (o : op) : bool :=
  negb (is_pseudo_name (code o)) &&
  match jump_index (code o) with
  | None => true
  | Some _ => match last_param o with
              | Some (PInt z) => existsb (fun o' => Z.eqb (off o') z) all
              | _ => false
              end
  end.

Definition closed_b (P : program) : bool :=
  nodup_z (map off (all_ops P)) && forallb (op_closed_b (all_ops P)) (all_ops P).

Lemma nodup_z_sound l : nodup_z l = true -> NoDup l.
Proof. exact (nodupb_sound Z.eqb Z.eqb_refl l). Qed.

Definition op_closed (kept : list Z) (o : op) : Prop :=
  is_pseudo_name (code o) = false /\
  forall idx, jump_index (code o) = Some idx -> exists z, last_param o = Some (PInt z) /\ In z kept.

Lemma Closed_intro P :
  NoDup (map off (all_ops P)) -> Forall (op_closed (map off (all_ops P))) (all_ops P) -> Closed P.
Proof.
  intros Hn Hall. pose proof (proj1 (Forall_forall _ _) Hall) as Hf. constructor.
  - exact Hn.
  - intros o idx Hin Hj. destruct (proj2 (Hf o Hin) idx Hj) as (z & Hl & Hz). exists z. split; [exact Hl|].
    apply in_map_iff in Hz. destruct Hz as (o' & E & Ho'). exists o'. split; assumption.
  - intros o Hin. apply (Hf o Hin).
Qed.

Theorem closed_b_sound P : closed_b P = true -> Closed P.
Proof.
  unfold closed_b. intro H. apply andb_prop in H as [Hn Hf].
  apply Closed_intro; [apply nodup_z_sound, Hn|]. apply Forall_forall. intros o Hin.
  apply (forallb_In _ _ _ Hf), andb_prop in Hin. destruct Hin as [Hp Hj].
  split; [apply negb_true_iff, Hp|]. intros idx Hidx. rewrite Hidx in Hj.
  destruct (last_param o) as [[z| | | | |]|]; try discriminate. exists z. split; [reflexivity|].
  apply existsb_exists in Hj. destruct Hj as (o' & Hin' & E'). apply Z.eqb_eq in E'. subst z. apply in_map, Hin'.
Qed.

Inductive subseq {A} : list A -> list A -> Prop :=
| ss_nil : forall l, subseq [] l
| ss_keep : forall x a b, subseq a b -> subseq (x :: a) (x :: b)
| ss_skip : forall x a b, subseq a b -> subseq a (x :: b).

Lemma subseq_refl {A} (l : list A) : subseq l l.
Proof. induction l; constructor; assumption. Qed.

Lemma subseq_In {A} (a b : list A) : subseq a b -> forall x, In x a -> In x b.
Proof.
  induction 1 as [l|x a b _ IH|x a b _ IH]; intros y Hy; [contradiction| |right; apply IH, Hy].
  destruct Hy as [Hy|Hy]; [left; exact Hy | right; apply IH, Hy].
Qed.

Lemma subseq_NoDup {A} (a b : list A) : subseq a b -> NoDup b -> NoDup a.
Proof.
  induction 1 as [l|x a b Hab IH|x a b _ IH]; intro Hb; [constructor| |apply IH, (NoDup_cons_iff x b), Hb].
  apply NoDup_cons_iff in Hb. destruct Hb as [Hx Hb]. constructor; [|apply IH, Hb].
  intro Hin. apply Hx, (subseq_In _ _ Hab _ Hin).
Qed.

Lemma subseq_trans {A} (a b c : list A) : subseq a b -> subseq b c -> subseq a c.
Proof.
  intros Hab Hbc. revert a Hab. induction Hbc as [l|x b c _ IH|x b c _ IH]; intros a Hab.
  - inversion Hab. constructor.
  - inversion Hab as [l | y a' b' Hab' | y a' b' Hab']; [constructor | apply ss_keep, IH, Hab' | apply ss_skip, IH, Hab'].
  - apply ss_skip, IH, Hab.
Qed.

Lemma subseq_app {A} (a b c d : list A) : subseq a b -> subseq c d -> subseq (a ++ c) (b ++ d).
Proof.
  intros Hab Hcd. induction Hab as [l|x a b _ IH|x a b _ IH]; cbn [app]; [|apply ss_keep, IH | apply ss_skip, IH].
  induction l as [|x l IH]; [exact Hcd | apply ss_skip, IH].
Qed.

Fixpoint offs (r : list pop) : list Z :=
  match r with
  | [] => []
  | PLabel _ :: rest => offs rest
  | x :: rest => pop_off x :: offs rest
  end.

Definition offs_all (rs : list (list pop)) : list Z := concat (map offs rs).

Lemma offs_app a b : offs (a ++ b) = offs a ++ offs b.
Proof. induction a as [|x r IH]; simpl; [reflexivity|]. destruct x; simpl; rewrite ?IH; reflexivity. Qed.

Lemma offs_concat rs : offs (concat rs) = offs_all rs.
Proof. unfold offs_all. induction rs as [|r rs IH]; [reflexivity|]. cbn [concat map]. rewrite offs_app, IH. reflexivity. Qed.

Lemma subseq_offs a b : subseq a b -> subseq (offs a) (offs b).
Proof.
  induction 1 as [|x a b _ IH|x a b _ IH]; [constructor| |].
  - destruct x; cbn [offs]; [apply ss_keep, IH | exact IH | apply ss_keep, IH].
  - destruct x; cbn [offs]; [apply ss_skip, IH | exact IH | apply ss_skip, IH].
Qed.

(* of the offsets: the sweep puts dummy ends in the place of jumps, so the swept list itself is no subsequence *)
Lemma strip_sweep_subseq l r : forall prev obe, subseq (offs (strip_sweep l r prev obe)) (offs r).
Proof.
  induction r as [|x rest IH]; intros prev obe; simpl; [constructor|].
  destruct x as [o|l'|o l']; simpl.
  - apply ss_keep, IH.
  - apply IH.
  - destruct (Nat.eqb l' l).
    + destruct obe; simpl; [apply ss_skip, IH | apply ss_keep, IH].
    + simpl. apply ss_keep, IH.
Qed.

Lemma strip_routine_subseq fuel r : subseq (offs (strip_routine fuel r)) (offs r).
Proof.
  apply (strip_routine_inv (fun r' => subseq (offs r') (offs r))); [|apply subseq_refl].
  intros l r' H. rewrite offs_app, app_nil_r in H. apply (subseq_trans _ _ _ (strip_sweep_subseq l r' None false) H).
Qed.

Lemma strip_subseq rs : subseq (offs_all (strip rs)) (offs_all rs).
Proof.
  unfold offs_all, strip. induction rs as [|r rest IH]; simpl; [constructor|].
  apply subseq_app; [apply strip_routine_subseq | exact IH].
Qed.

Lemma strip_sweep_ok (Q : pop -> Prop) l r : (forall z, Q (dummy_end z)) ->
  forall prev obe, Forall Q r -> Forall Q (strip_sweep l r prev obe).
Proof.
  intro Hend. induction r as [|x rest IH]; intros prev obe H; [constructor|].
  apply Forall_cons_iff in H. destruct H as [Hx Hrest]. destruct x as [o|l'|o l']; cbn [strip_sweep].
  - constructor; [exact Hx | apply IH, Hrest].
  - constructor; [exact Hx | apply IH, Hrest].
  - destruct (Nat.eqb l' l); [|constructor; [exact Hx | apply IH, Hrest]].
    destruct obe; [apply IH, Hrest | constructor; [apply Hend | apply IH, Hrest]].
Qed.

Lemma strip_routine_ok (Q : pop -> Prop) fuel r : (forall z, Q (dummy_end z)) ->
  Forall Q r -> Forall Q (strip_routine fuel r).
Proof.
  intro Hend. apply strip_routine_inv. intros l r' H. apply Forall_app in H. apply (strip_sweep_ok Q l r' Hend), H.
Qed.

(* LabelFinalizer: the table as a function of the output alone *)
Fixpoint assign_spec (out : list pop) (waiting : list nat) (t : label_table) : list nat * label_table :=
  match out with
  | [] => (waiting, t)
  | PLabel l :: rest => assign_spec rest (waiting ++ [l]) t
  | x :: rest => assign_spec rest [] (assign waiting (pop_off x) t)
  end.

Lemma assign_spec_app a : forall b w t,
  assign_spec (a ++ b) w t = let '(w1, t1) := assign_spec a w t in assign_spec b w1 t1.
Proof.
  induction a as [|x a IH]; intros b w t; [reflexivity|].
  cbn [app assign_spec]. destruct x; apply IH.
Qed.

Definition finalizer_removes (x : pop) (rest : list pop) : bool :=
  match x with
  | PJump o l => is_plain_jump x && existsb (Nat.eqb l) (labels_after rest)
  | _ => false
  end.

Lemma finalize_routine_cons x r w t :
  finalize_routine (x :: r) w t =
  if finalizer_removes x r then finalize_routine r w t
  else let '(w1, t1) := assign_spec [x] w t in
       let '(out, w', t') := finalize_routine r w1 t1 in (x :: out, w', t').
Proof. destruct x as [o|l|o l]; cbn [finalize_routine finalizer_removes assign_spec]; reflexivity. Qed.

(* What LabelFinalizer leaves of a routine.  Comp/EraseSem.v, later in the build, has the same fixpoint with any test in
   the place of [finalizer_removes] ([kfilter]); Comp/FinalizeSem.v identifies the two. *)
Fixpoint finalizer_keeps (r : list pop) : list pop :=
  match r with
  | [] => []
  | x :: rest => if finalizer_removes x rest then finalizer_keeps rest else x :: finalizer_keeps rest
  end.

Lemma finalize_routine_eq r : forall w t,
  finalize_routine r w t = let '(w', t') := assign_spec (finalizer_keeps r) w t in (finalizer_keeps r, w', t').
Proof.
  induction r as [|x rest IH]; intros w t; [reflexivity|].
  rewrite finalize_routine_cons. cbn [finalizer_keeps]. destruct (finalizer_removes x rest); [apply IH|].
  rewrite (assign_spec_app [x] (finalizer_keeps rest)). destruct (assign_spec [x] w t) as [w1 t1]. rewrite IH.
  destruct (assign_spec (finalizer_keeps rest) w1 t1). reflexivity.
Qed.

Lemma finalize_all_eq rs : forall w t,
  finalize_all rs w t = (map finalizer_keeps rs, snd (assign_spec (concat (map finalizer_keeps rs)) w t)).
Proof.
  induction rs as [|r rest IH]; intros w t; [reflexivity|]. cbn [finalize_all map concat].
  rewrite finalize_routine_eq, assign_spec_app. destruct (assign_spec (finalizer_keeps r) w t) as [w1 t1].
  rewrite IH. reflexivity.
Qed.

Lemma finalizer_keeps_subseq r : subseq (finalizer_keeps r) r.
Proof.
  induction r as [|x rest IH]; [constructor|]. cbn [finalizer_keeps].
  destruct (finalizer_removes x rest); [apply ss_skip, IH | apply ss_keep, IH].
Qed.

Lemma finalizer_keeps_all_subseq rs : subseq (concat (map finalizer_keeps rs)) (concat rs).
Proof.
  induction rs as [|r rest IH]; [constructor | apply subseq_app; [apply finalizer_keeps_subseq | exact IH]].
Qed.

Definition table_ok (t : label_table) (kept : list Z) : Prop := forall l z, In (l, z) t -> In z kept.

Lemma assign_ok ws z t kept : table_ok t kept -> In z kept -> table_ok (assign ws z t) kept.
Proof.
  intros Ht Hz. revert t Ht. induction ws as [|w ws IH]; intros t Ht; [exact Ht|].
  apply IH. intros l z' [E|H]; [injection E as _ <-; exact Hz | apply (Ht _ _ H)].
Qed.

Lemma assign_spec_ok out kept : forall w t,
  table_ok t kept -> incl (offs out) kept -> table_ok (snd (assign_spec out w t)) kept.
Proof.
  induction out as [|x out IH]; intros w t Ht Hin; [exact Ht|].
  destruct x as [o|l|o l]; cbn [assign_spec offs] in Hin |- *; [| apply (IH _ _ Ht Hin) |];
    apply incl_cons_inv in Hin; destruct Hin as [Hx Hin]; apply (IH _ _ (assign_ok _ _ _ _ Ht Hx) Hin).
Qed.

Lemma lookup_label_In l t z : lookup_label l t = Some z -> In (l, z) t.
Proof.
  induction t as [|[k v] r IH]; simpl; [discriminate|]. destruct (Nat.eqb k l) eqn:E.
  - intro H; injection H as <-. apply Nat.eqb_eq in E; subst. left; reflexivity.
  - intro H; right; apply IH; exact H.
Qed.

(* plain operations must not use a jump-carrying or pseudo opcode name; label jumps no pseudo name *)
Definition pop_ok (x : pop) : Prop :=
  match x with
  | POp o => jump_index (code o) = None /\ is_pseudo_name (code o) = false
  | PJump o _ => is_pseudo_name (code o) = false
  | PLabel _ => True
  end.

Lemma remove_routine_ind t (R : list pop -> list op -> Prop) :
  R [] [] ->
  (forall o r out, R r out -> R (POp o :: r) (o :: out)) ->
  (forall l r out, R r out -> R (PLabel l :: r) out) ->
  (forall o l z r out, lookup_label l t = Some z -> R r out ->
     R (PJump o l :: r) (mkOp (off o) (code o) (params o ++ [PInt z]) :: out)) ->
  forall r out, remove_routine t r = Ok out -> R r out.
Proof.
  intros Hnil Hop Hlabel Hjump. induction r as [|[o|l|o l] r IH]; intros out H; cbn [remove_routine] in H.
  - injection H as <-. exact Hnil.
  - destruct (remove_routine t r) as [out'|]; [|discriminate]. injection H as <-. apply Hop, IH. reflexivity.
  - apply Hlabel, IH, H.
  - destruct (lookup_label l t) as [z|] eqn:El; [|discriminate].
    destruct (remove_routine t r) as [out'|]; [|discriminate]. injection H as <-.
    apply (Hjump _ _ _ _ _ El), IH. reflexivity.
Qed.

Lemma remove_routine_app t b y : remove_routine t b = Ok y ->
  forall a x, remove_routine t a = Ok x -> remove_routine t (a ++ b) = Ok (x ++ y).
Proof.
  intro Hb. apply remove_routine_ind; cbn [app remove_routine].
  - exact Hb.
  - intros o r out ->. reflexivity.
  - intros l r out H. exact H.
  - intros o l z r out -> ->. reflexivity.
Qed.

Lemma remove_all_each t rs : forall P, remove_all t rs = Ok P -> Forall2 (fun r o => remove_routine t r = Ok o) rs P.
Proof.
  induction rs as [|r rs IH]; intros P H; cbn [remove_all] in H; [injection H as <-; constructor|].
  destruct (remove_routine t r) as [o|] eqn:E1; [|discriminate].
  destruct (remove_all t rs) as [os|]; [|discriminate]. injection H as <-. constructor; [exact E1 | apply IH; reflexivity].
Qed.

Lemma remove_all_flat t rs P : remove_all t rs = Ok P -> remove_routine t (concat rs) = Ok (all_ops P).
Proof.
  intro H. apply remove_all_each in H. induction H as [|r o rs' P' E1 _ IH]; [reflexivity|].
  apply (remove_routine_app _ _ _ IH _ _ E1).
Qed.

Lemma remove_routine_offs t : forall r out, remove_routine t r = Ok out -> map off out = offs r.
Proof. apply remove_routine_ind; cbn [map offs off pop_off]; congruence. Qed.

Lemma last_param_app z c ps p : last_param (mkOp z c (ps ++ [p])) = Some p.
Proof. unfold last_param. cbn [params]. rewrite map_app. apply last_last. Qed.

Lemma remove_routine_ops t kept : table_ok t kept -> forall r out, remove_routine t r = Ok out ->
  Forall pop_ok r -> Forall (op_closed kept) out.
Proof.
  intro Ht. apply (remove_routine_ind t (fun r out => Forall pop_ok r -> Forall _ out)).
  - constructor.
  - intros o r out IH Hok. apply Forall_cons_iff in Hok. destruct Hok as [[Hj Hp] Hr].
    constructor; [|apply IH, Hr]. split; [exact Hp | congruence].
  - intros l r out IH Hok. apply IH, (Forall_inv_tail Hok).
  - intros o l z r out El IH Hok. apply Forall_cons_iff in Hok. destruct Hok as [Hx Hr].
    constructor; [|apply IH, Hr]. split; [exact Hx|].
    intros idx _. exists z. split; [apply last_param_app | apply (Ht l), lookup_label_In, El].
Qed.

Theorem passes_closed rs P :
  NoDup (offs_all rs) ->
  (forall r x, In r rs -> In x r -> pop_ok x) ->
  passes rs = Ok P -> Closed P.
Proof.
  unfold passes, finalize. rewrite finalize_all_eq. set (fin := map finalizer_keeps (strip rs)).
  set (t := snd (assign_spec (concat fin) [] [])). intros Hnd Hok H.
  pose proof (finalizer_keeps_all_subseq (strip rs) : subseq (concat fin) _) as Hsub.
  apply remove_all_flat in H. pose proof (remove_routine_offs _ _ _ H) as Hoffs.
  assert (Hok_strip : Forall pop_ok (concat (strip rs))).
  { apply Forall_concat, Forall_map, Forall_forall. intros r Hr.
    apply strip_routine_ok; [intro z; split; reflexivity | apply Forall_forall; intros y Hy; apply (Hok r y Hr Hy)]. }
  assert (Hok_fin : Forall pop_ok (concat fin)).
  { apply Forall_forall. intros x Hx. apply (proj1 (Forall_forall _ _) Hok_strip), (subseq_In _ _ Hsub), Hx. }
  assert (Htab : table_ok t (map off (all_ops P))).
  { rewrite Hoffs. apply assign_spec_ok; [intros l z [] | apply incl_refl]. }
  apply Closed_intro; [|apply (remove_routine_ops _ _ Htab _ _ H Hok_fin)].
  rewrite Hoffs. apply (subseq_NoDup _ _ (subseq_offs _ _ Hsub)). rewrite offs_concat.
  apply (subseq_NoDup _ _ (strip_subseq rs) Hnd).
Qed.

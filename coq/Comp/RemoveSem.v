(* Filtered pseudo code, and OpsLabelJumpToRemover as the first case of it.
   First half: [omap f] keeps the entries [f] answers for and [phi] says where a position ends up; of two flat
   graphs (Comp/Flat.v), the second built from the kept entries of the first, related positions behave equally as
   soon as every single entry is simulated ([filtered_sim], [sim_kept], [sim_silent]).  Comp/EraseSem.v and
   Comp/ActSem.v are the other two cases.
   Second half: dropping the labels and appending to every label jump the offset of the op its label stands for
   gives an op list whose flow graph is behaviourally equal to the graph of the pseudo code (Comp/PopSem.v), for all
   paths and outcomes. *)
From ES Require Import Base Ssb.Param Ssb.Cfg Ssb.Tables Ssb.Machine Ssb.Silent Comp.Passes Comp.PopSem
  Comp.Flat Comp.Closed Script.Renumber.

Definition omap {A B} (f : A -> option B) (l : list A) : list B :=
  flat_map (fun x => match f x with Some y => [y] | None => [] end) l.

Lemma omap_app {A B} (f : A -> option B) a b : omap f (a ++ b) = omap f a ++ omap f b.
Proof. unfold omap. apply flat_map_app. Qed.

Lemma omap_cons {A B} (f : A -> option B) x l :
  omap f (x :: l) = match f x with Some y => y :: omap f l | None => omap f l end.
Proof. unfold omap. cbn [flat_map]. destruct (f x); reflexivity. Qed.

(* position in the filtered list *)
Definition phi {A B} (f : A -> option B) (l : list A) (a : nat) : nat := length (omap f (firstn a l)).

Lemma phi_cons {A B} (f : A -> option B) x l a :
  phi f (x :: l) (S a) = match f x with Some _ => S (phi f l a) | None => phi f l a end.
Proof. unfold phi. cbn [firstn]. rewrite omap_cons. destruct (f x); reflexivity. Qed.

Lemma phi_S {A B} (f : A -> option B) l : forall a x, nth_error l a = Some x ->
  phi f l (S a) = match f x with Some _ => S (phi f l a) | None => phi f l a end.
Proof.
  induction l as [|z l IH]; intros [|a] x H; try discriminate.
  - injection H as ->. rewrite phi_cons. reflexivity.
  - rewrite !phi_cons, (IH _ _ H). destruct (f z), (f x); reflexivity.
Qed.

Lemma phi_keep {A B} (f : A -> option B) l a x y : nth_error l a = Some x -> f x = Some y -> phi f l (S a) = S (phi f l a).
Proof. intros H Hf. rewrite (phi_S f l a x H), Hf. reflexivity. Qed.

Lemma phi_skip {A B} (f : A -> option B) l a x : nth_error l a = Some x -> f x = None -> phi f l (S a) = phi f l a.
Proof. intros H Hf. rewrite (phi_S f l a x H), Hf. reflexivity. Qed.

Lemma phi_nth {A B} (f : A -> option B) l : forall a x y, nth_error l a = Some x -> f x = Some y ->
  nth_error (omap f l) (phi f l a) = Some y.
Proof.
  induction l as [|z l IH]; intros [|a] x y H Hf; try discriminate.
  - injection H as ->. rewrite omap_cons, Hf. reflexivity.
  - rewrite phi_cons, omap_cons. destruct (f z); apply (IH _ _ _ H Hf).
Qed.

Lemma phi_all {A B} (f : A -> option B) l : phi f l (length l) = length (omap f l).
Proof. unfold phi. rewrite firstn_all. reflexivity. Qed.

Lemma annotate_map_omap {A B C} (ib : B -> bool) (tr : list A -> list B) (ann : list A -> list C) f rs :
  (forall r, In r rs -> annotate_r ib (tr r) false = omap f (ann r)) ->
  annotate ib (map tr rs) = omap f (flat_map ann rs).
Proof.
  induction rs as [|r rs IH]; intro H; [reflexivity|]. unfold annotate in *. cbn [map flat_map].
  rewrite omap_app, (H r (or_introl eq_refl)), IH; [reflexivity | intros r' Hr; apply H; right; exact Hr].
Qed.

(* Two flat graphs, the second built from the entries of the first that [f] keeps.  [C] is an entry of the first
   graph together with whatever [f] needs to decide, [pr] forgets the latter.  The lemmas find [nd1 nd2 pr N1 N2] in
   the goal, so a client presents its graphs literally as [flat_cfg nd1 N1 (map pr C1)] and
   [flat_cfg nd2 N2 (omap f C1)]. *)
Section Filtered.
  Context {C E1 E2 : Type}.
  Variable nd1 : nat -> nat -> nat -> E1 -> node.
  Variable nd2 : nat -> nat -> nat -> E2 -> node.
  Variable pr : C -> E1.
  Variable f : C -> option E2.
  Variable C1 : list C.
  Variables N1 N2 : nat.
  Hypothesis HN1 : length C1 = N1.
  Hypothesis HN2 : length (omap f C1) = N2.

  Let g1 := flat_cfg nd1 N1 (map pr C1).
  Let g2 := flat_cfg nd2 N2 (omap f C1).
  Let ph := phi f C1.

  (* stop node to stop node, every other node to the place where it, or what follows it, ends up
     ([Rel] below and [ERel] of Comp/EraseSem.v are this relation, written with the names of their sections) *)
  Definition filt_rel (a b : nat) : Prop := (a = S N1 /\ b = S N2) \/ (a <= N1 /\ b = ph a).

  Lemma phi_end : ph N1 = N2.
  Proof. unfold ph. rewrite <- HN1, phi_all. exact HN2. Qed.

  Lemma filt_g1_nth a c : nth_error C1 a = Some c -> nth_error g1 a = Some (nd1 N1 (S N1) a (pr c)).
  Proof. intro H. apply flat_cfg_nth, map_nth_error, H. Qed.

  Lemma filt_g2_nth a c e : nth_error C1 a = Some c -> f c = Some e -> nth_error g2 (ph a) = Some (nd2 N2 (S N2) (ph a) e).
  Proof. intros H Hf. apply flat_cfg_nth, (phi_nth _ _ _ _ _ H Hf). Qed.

  Lemma filt_lt a c : nth_error C1 a = Some c -> a < N1.
  Proof. intro H. rewrite <- HN1. apply nth_error_Some. congruence. Qed.

  Lemma filt_succ a c e : nth_error C1 a = Some c -> f c = Some e ->
    forall last : bool, filt_rel (if last then N1 else S a) (if last then N2 else S (ph a)).
  Proof.
    intros H Hf last. pose proof (filt_lt _ _ H).
    right. destruct last; [split; [lia | symmetry; apply phi_end]|].
    split; [lia | symmetry; apply (phi_keep _ _ _ _ _ H Hf)].
  Qed.

  Lemma sim_stop (R : nat -> nat -> Prop) : node_sim R g1 g2 (S N1) (S N2).
  Proof.
    apply (node_rel_sim _ _ _ _ _ NStop NStop); [| |exact I].
    - apply flat_cfg_stop. rewrite map_length. exact HN1.
    - apply (flat_cfg_stop _ _ _ HN2).
  Qed.

  Lemma sim_fall (R : nat -> nat -> Prop) b : nth_error g2 b = Some (implicit_return (S N2)) -> R (S N1) (S N2) -> node_sim R g1 g2 N1 b.
  Proof.
    intros Hb HR.
    apply (node_rel_sim _ _ _ _ _ (implicit_return (S N1)) (implicit_return (S N2))); [|exact Hb|split; [reflexivity | exact HR]].
    apply flat_cfg_fall. rewrite map_length. exact HN1.
  Qed.

  Lemma filt_g2_fall : nth_error g2 N2 = Some (implicit_return (S N2)).
  Proof. apply (flat_cfg_fall _ _ _ HN2). Qed.

  Lemma sim_kept (R : nat -> nat -> Prop) a c e : nth_error C1 a = Some c -> f c = Some e ->
    node_rel R (nd1 N1 (S N1) a (pr c)) (nd2 N2 (S N2) (ph a) e) -> node_sim R g1 g2 a (ph a).
  Proof. intros H Hf. apply node_rel_sim; [apply (filt_g1_nth _ _ H) | apply (filt_g2_nth _ _ _ H Hf)]. Qed.

  Lemma sim_silent (R : nat -> nat -> Prop) a b c m : nth_error C1 a = Some c -> nd1 N1 (S N1) a (pr c) = NGoto m ->
    (exists b', silently g2 b b' /\ R m b') -> node_sim R g1 g2 a b.
  Proof. intros H Hg Hb. unfold node_sim. rewrite (filt_g1_nth _ _ H), Hg. exact Hb. Qed.

  Lemma filtered_sim :
    (forall a c, nth_error C1 a = Some c -> node_sim filt_rel g1 g2 a (ph a)) ->
    forall a b, filt_rel a b -> node_sim filt_rel g1 g2 a b.
  Proof.
    intros H a b [[-> ->]|[Hle ->]]; [apply sim_stop|].
    destruct (nth_error C1 a) as [c|] eqn:E; [apply (H _ _ E)|].
    apply nth_error_None in E. assert (a = N1) as -> by lia. rewrite phi_end.
    apply sim_fall; [apply filt_g2_fall | left; split; reflexivity].
  Qed.

  (* beyond its last node a graph is stuck at once *)
  Lemma filt_reaches : (forall a, a <= S N1 -> exists o, reaches g1 a o) -> forall a, exists o, reaches g1 a o.
  Proof.
    intros Hterm a. destruct (Nat.le_gt_cases a (S N1)) as [Ha|Ha]; [apply (Hterm a Ha)|].
    exists (obs_at g1 a). apply reaches_here. unfold terminal. rewrite (proj2 (nth_error_None g1 a)); [exact I|].
    unfold g1. rewrite flat_cfg_length, map_length, HN1. exact Ha.
  Qed.

  Theorem filtered_beh_eq :
    (forall a c, nth_error C1 a = Some c -> node_sim filt_rel g1 g2 a (ph a)) ->
    (forall a, a <= S N1 -> exists o, reaches g1 a o) ->
    forall a b, filt_rel a b -> beh_eq g1 g2 a b.
  Proof.
    intros H Hterm. apply node_simulation_beh_eq; [apply (filtered_sim H) | intros a b _; apply (filt_reaches Hterm)].
  Qed.
End Filtered.
Arguments phi_end {C E2 f C1 N1 N2}.
Arguments filt_succ {C E2 f C1 N1 N2} HN1 HN2 {a c e}.
Arguments filt_g1_nth {C E1} nd1 pr {C1} N1 {a c}.
Arguments filt_g2_nth {C E2} nd2 f {C1} N2 {a c e}.
Arguments filt_g2_fall {C E2 nd2 f C1 N2}.
Arguments sim_stop {C E1 E2 nd1 nd2 pr f C1 N1 N2}.
Arguments sim_fall {C E1 E2 nd1 nd2 pr f C1 N1 N2} HN1 {R b}.
Arguments sim_kept {C E1 E2 nd1 nd2 pr f C1 N1 N2 R a c e}.
Arguments sim_silent {C E1 E2 nd1 nd2 pr f C1 N1 N2 R a b c} m.
Arguments filt_lt {C C1 N1} HN1 {a c}.
Arguments filt_reaches {C E1} nd1 pr {C1 N1}.
Arguments filtered_beh_eq {C E1 E2 nd1 nd2 pr f C1 N1 N2}.

Definition defines (l : nat) (x : pop) : bool := match x with PLabel l' => Nat.eqb l' l | _ => false end.

Lemma find_label_cons l x ps s : find_label l (x :: ps) s = if defines l x then Some s else find_label l ps (S s).
Proof. destruct x; reflexivity. Qed.

Lemma find_label_lt l : forall ps s i, find_label l ps s = Some i -> s <= i < s + length ps /\ nth_error ps (i - s) = Some (PLabel l).
Proof.
  induction ps as [|x ps IH]; intros s i H; [discriminate|]. rewrite find_label_cons in H. cbn [length].
  destruct (defines l x) eqn:E.
  - injection H as <-. rewrite Nat.sub_diag. destruct x; try discriminate. apply Nat.eqb_eq in E. subst. split; [lia | reflexivity].
  - destruct (IH _ _ H) as [Hr Hn]. split; [lia|]. replace (i - s) with (S (i - S s)) by lia. exact Hn.
Qed.

Lemma find_label_le l ps i : find_label l ps 0 = Some i -> i <= length ps.
Proof. intro H. apply Nat.lt_le_incl, (find_label_lt _ _ _ _ H). Qed.

(* A label found at position [i] of the unfiltered list is found at [phi i] of the filtered one, if kept entries
   keep whether they define [l] and the entry at [i] is kept; [s0] and [s] are where the two searches start counting. *)
Lemma find_label_omap {C E} (p1 : C -> pop) (p2 : E -> pop) (f : C -> option E) l : forall (Cs : list C) s0 s i,
  (forall c e, In c Cs -> f c = Some e -> defines l (p2 e) = defines l (p1 c)) ->
  find_label l (map p1 Cs) s0 = Some i ->
  (forall c, nth_error Cs (i - s0) = Some c -> f c <> None) ->
  find_label l (map p2 (omap f Cs)) s = Some (s + phi f Cs (i - s0)).
Proof.
  induction Cs as [|c Cs IH]; intros s0 s i Hk H Hal; [discriminate|].
  cbn [map] in H. rewrite find_label_cons in H. rewrite omap_cons.
  assert (Hk' : forall c' e, In c' Cs -> f c' = Some e -> defines l (p2 e) = defines l (p1 c')) by (intros; apply Hk; [right|]; assumption).
  destruct (defines l (p1 c)) eqn:El.
  - injection H as <-. rewrite Nat.sub_diag in *. destruct (f c) as [e|] eqn:Ef; [|destruct (Hal c eq_refl Ef)].
    cbn [map]. rewrite find_label_cons, (Hk c e (or_introl eq_refl) Ef), El, Nat.add_0_r. reflexivity.
  - destruct (find_label_lt _ _ _ _ H) as [Hr _]. replace (i - s0) with (S (i - S s0)) in * by lia. rewrite phi_cons.
    destruct (f c) as [e|] eqn:Ef.
    + cbn [map]. rewrite find_label_cons, (Hk c e (or_introl eq_refl) Ef), El, (IH _ (S s) _ Hk' H Hal). f_equal. lia.
    + apply (IH _ s _ Hk' H Hal).
Qed.

(* Pseudo code [rs2] whose annotated list is what [f] keeps of the annotated list of [rs], each entry paired with
   a piece of information [xs] for the filter (Comp/EraseSem.v: the rest of the routine; Comp/ActSem.v: the action). *)
Section PopFilter.
  Context {X : Type} (rs rs2 : list (list pop)) (xs : list X) (f : (pop * bool * bool) * X -> option (pop * bool * bool)).
  Hypothesis Hlen : length xs = length (concat rs).
  Hypothesis HL2 : annotate pop_isctx rs2 = omap f (combine (annotate pop_isctx rs) xs).
  Let C1 := combine (annotate pop_isctx rs) xs.

  Lemma pf_len : length C1 = length (concat rs).
  Proof. unfold C1. rewrite combine_length, annotate_length, Hlen. apply Nat.min_id. Qed.

  Lemma pf_len2 : length (omap f C1) = length (concat rs2).
  Proof. unfold C1. rewrite <- HL2. apply annotate_length. Qed.

  Lemma pf_fst : map fst C1 = annotate pop_isctx rs.
  Proof. apply map_fst_combine. rewrite annotate_length, Hlen. reflexivity. Qed.

  Lemma pf_all : map (fun c => fst (fst (fst c))) C1 = concat rs.
  Proof. rewrite <- (map_map fst (fun e => fst (fst e))), pf_fst. apply annotate_fst. Qed.

  Lemma pf_nth_all a c : nth_error C1 a = Some c -> nth_error (concat rs) a = Some (fst (fst (fst c))).
  Proof. intro H. rewrite <- pf_all. apply (map_nth_error (fun c => fst (fst (fst c))) _ _ H). Qed.

  Lemma pf_g1 : cfg_of_pops rs = flat_cfg (pop_node (concat rs)) (length (concat rs)) (map fst C1).
  Proof. rewrite pf_fst. apply cfg_of_pops_flat. Qed.

  Lemma pf_g2 : cfg_of_pops rs2 = flat_cfg (pop_node (concat rs2)) (length (concat rs2)) (omap f C1).
  Proof. unfold C1. rewrite <- HL2. apply cfg_of_pops_flat. Qed.

  Lemma pf_find l i :
    (forall c e, In c C1 -> f c = Some e -> defines l (fst (fst e)) = defines l (fst (fst (fst c)))) ->
    find_label l (concat rs) 0 = Some i -> (forall c, nth_error C1 i = Some c -> f c <> None) ->
    find_label l (concat rs2) 0 = Some (phi f C1 i).
  Proof.
    intros Hk H Hal. rewrite <- pf_all in H. rewrite <- (annotate_fst pop_isctx rs2), HL2.
    pose proof (find_label_omap _ (fun e => fst (fst e)) f l C1 0 0 i Hk H) as Hf. rewrite Nat.sub_0_r in Hf. apply (Hf Hal).
  Qed.
End PopFilter.
Arguments pf_len {X rs xs}.
Arguments pf_len2 {X rs rs2 xs f}.
Arguments pf_fst {X rs xs}.
Arguments pf_nth_all {X rs xs} Hlen {a c}.
Arguments pf_g1 {X rs xs}.
Arguments pf_g2 {X rs rs2 xs f}.
Arguments pf_find {X rs rs2 xs f}.

Definition conv (t : label_table) (x : pop) : option op :=
  match x with
  | POp o => Some o
  | PLabel _ => None
  | PJump o l => match lookup_label l t with
                 | Some z => Some (mkOp (off o) (code o) (params o ++ [PInt z]))
                 | None => None
                 end
  end.

Definition is_label (x : pop) : bool := match x with PLabel _ => true | _ => false end.

(* only a label is dropped: every label jump finds its label in the table *)
Definition resolved (t : label_table) (x : pop) : Prop := conv t x = None -> is_label x = true.

Lemma remove_routine_omap t : forall r out, remove_routine t r = Ok out -> out = omap (conv t) r /\ Forall (resolved t) r.
Proof.
  apply remove_routine_ind.
  - split; constructor.
  - intros o r out [-> H]. split; [reflexivity | constructor; [discriminate | exact H]].
  - intros l r out [-> H]. split; [reflexivity | constructor; [intros _; reflexivity | exact H]].
  - intros o l z r out El [-> H]. rewrite omap_cons. cbn [conv]. rewrite El. split; [reflexivity|].
    constructor; [unfold resolved; cbn [conv]; rewrite El; discriminate | exact H].
Qed.

Lemma remove_all_omap t rs P : remove_all t rs = Ok P ->
  P = map (omap (conv t)) rs /\ Forall (Forall (resolved t)) rs.
Proof.
  intro H. apply remove_all_each in H. induction H as [|r o rs' P' E1 _ [-> Hjs]]; [split; [reflexivity | constructor]|].
  destruct (remove_routine_omap _ _ _ E1) as [-> Hj]. split; [reflexivity | constructor; assumption].
Qed.

(* a routine does not end in a label, and no label directly follows a context op *)
Fixpoint shape_ok (r : list pop) : bool :=
  match r with
  | [] => true
  | x :: rest =>
      match rest with
      | [] => negb (is_label x)
      | y :: _ => negb (pop_isctx x && is_label y) && shape_ok rest
      end
  end.

Definition pop_wf (x : pop) : bool :=
  match x with
  | POp o => match jump_index (code o) with None => true | Some _ => false end
  | PLabel _ => true
  | PJump o _ => match jump_index (code o) with Some idx => Nat.eqb idx (length (params o)) | None => false end
  end.

Lemma shape_ok_cons x r : shape_ok (x :: r) = true ->
  shape_ok r = true /\ match r with PLabel _ :: _ => pop_isctx x = false | _ => True end.
Proof.
  cbn [shape_ok]. destruct r as [|y r]; [auto|]. intro H. apply andb_prop in H as [H1 H2]. split; [exact H2|].
  destruct y; trivial. apply negb_true_iff in H1. rewrite andb_true_r in H1. exact H1.
Qed.

Lemma label_not_last r : forall pc0 x last pc, shape_ok r = true ->
  In (x, last, pc) (annotate_r pop_isctx r pc0) -> is_label x = true -> last = false.
Proof.
  induction r as [|y r IH]; intros pc0 x last pc Hs Hin Hl; [contradiction|].
  cbn [annotate_r] in Hin. cbn [shape_ok] in Hs. destruct Hin as [E|Hin].
  - injection E as -> <- _. destruct r as [|z r']; [|reflexivity]. rewrite Hl in Hs. discriminate.
  - destruct r as [|z r']; [contradiction|]. apply andb_prop in Hs. apply (IH _ _ _ _ (proj2 Hs) Hin Hl).
Qed.

Lemma jump_table_all (P : string -> bool) : forallb (fun kv => P (fst kv)) jump_table = true ->
  forall c, jump_index c <> None -> P c = true.
Proof.
  intros Hall c. unfold jump_index. destruct (assoc_string c jump_table) as [v|] eqn:E; [intros _|contradiction].
  apply (forallb_In _ _ _ Hall (assoc_string_In _ _ _ E)).
Qed.

Lemma jump_not_ctx c : jump_index c <> None -> is_ctx c = false.
Proof. intro H. apply negb_true_iff, (jump_table_all (fun c => negb (is_ctx c)) eq_refl c H). Qed.

(* [conv] on annotated entries: the annotated op list of the result is what it keeps of the annotated pseudo code
   ([annotate_omap]) *)
Definition conv3 (t : label_table) (e : pop * bool * bool) : option (op * bool * bool) :=
  let '(x, last, pc) := e in match conv t x with Some o => Some (o, last, pc) | None => None end.

Lemma conv_isctx t x o : pop_wf x = true -> conv t x = Some o -> op_isctx o = pop_isctx x.
Proof.
  destruct x as [o'|l|o' l]; cbn [conv pop_wf]; intros Hw H.
  - injection H as <-. reflexivity.
  - discriminate.
  - destruct (lookup_label l t); [|discriminate]. injection H as <-. unfold op_isctx, pop_isctx. cbn [code pname].
    destruct (jump_index (code o')) eqn:J; [|discriminate].
    rewrite jump_not_ctx by congruence. reflexivity.
Qed.

Lemma conv_nonempty t r : shape_ok r = true -> Forall (resolved t) r -> r <> [] -> omap (conv t) r <> [].
Proof.
  induction r as [|x r IH]; intros Hs Hj Hne; [contradiction|]. inversion Hj as [|? ? Hx Hr]; subst.
  rewrite omap_cons. destruct (conv t x) as [o|] eqn:E; [discriminate|]. cbn [shape_ok] in Hs. destruct r as [|y r'].
  - rewrite (Hx E) in Hs. discriminate.
  - apply andb_prop in Hs. apply IH; [apply Hs | exact Hr | discriminate].
Qed.

(* The condition on [pc]: when the head is dropped, the next element is annotated with [pc] on the left and with
   [pop_isctx] of the dropped head, which is false, on the right. *)
Lemma annotate_r_omap t r : forall pc,
  shape_ok r = true -> forallb pop_wf r = true -> Forall (resolved t) r ->
  (match r with PLabel _ :: _ => pc = false | _ => True end) ->
  annotate_r op_isctx (omap (conv t) r) pc = omap (conv3 t) (annotate_r pop_isctx r pc).
Proof.
  induction r as [|x r IH]; intros pc Hs Hw Hj Hpc; [reflexivity|].
  cbn [forallb] in Hw. apply andb_prop in Hw as [Hwx Hwr]. inversion Hj as [|? ? Hjx Hjr]; subst.
  destruct (shape_ok_cons _ _ Hs) as [Hsr Hxy]. cbn [annotate_r]. rewrite !omap_cons. cbn [conv3].
  destruct (conv t x) as [o|] eqn:E.
  - (* kept: it is the last of its routine exactly if it was, as what follows it is not all dropped *)
    cbn [annotate_r]. rewrite (conv_isctx t x o Hwx E), (IH _ Hsr Hwr Hjr Hxy).
    destruct r as [|y r']; [reflexivity|]. pose proof (conv_nonempty t _ Hsr Hjr ltac:(discriminate)).
    destruct (omap (conv t) (y :: r')); [contradiction | reflexivity].
  - (* dropped, so a label: the previous element is no context op, nor is the label *)
    destruct x as [o|l|o l]; try discriminate (Hjx E).
    subst pc. apply (IH _ Hsr Hwr Hjr). exact Hxy.
Qed.

Lemma annotate_omap t rs :
  (forall r, In r rs -> shape_ok r = true /\ forallb pop_wf r = true /\ Forall (resolved t) r) ->
  annotate op_isctx (map (omap (conv t)) rs) = omap (conv3 t) (annotate pop_isctx rs).
Proof.
  intro H. apply annotate_map_omap. intros r Hr. destruct (H r Hr) as (H1 & H2 & H3).
  apply annotate_r_omap; try assumption. destruct r as [|[]]; trivial.
Qed.

Fixpoint next_off (ps : list pop) : option Z :=
  match ps with
  | [] => None
  | PLabel _ :: r => next_off r
  | x :: _ => Some (pop_off x)
  end.

(* the label table says, for every defined label, the offset of the first op after it, and nothing for any other *)
Definition table_right (all : list pop) (t : label_table) : Prop :=
  forall l, match find_label l all 0 with
            | Some i => exists z, lookup_label l t = Some z /\ next_off (skipn i all) = Some z
            | None => lookup_label l t = None
            end.

Lemma conv_off t x o rest : conv t x = Some o -> next_off (x :: rest) = Some (off o).
Proof.
  destruct x as [o'|l|o' l]; cbn [conv next_off pop_off]; [| discriminate | destruct (lookup_label l t); [|discriminate]];
    intros [= <-]; reflexivity.
Qed.

Lemma find_off_nth l : forall s k o, NoDup (map off l) -> nth_error l k = Some o -> find_off (off o) l s = Some (s + k).
Proof.
  induction l as [|x l IH]; intros s k o Hnd Hn; [destruct k; discriminate|].
  cbn [map] in Hnd. inversion Hnd as [|? ? Hnot Hnd']; subst.
  destruct k as [|k]; cbn [nth_error] in Hn.
  - injection Hn as ->. cbn [find_off]. rewrite Z.eqb_refl. f_equal. lia.
  - cbn [find_off]. destruct (Z.eqb (off x) (off o)) eqn:E.
    + apply Z.eqb_eq in E. exfalso. apply Hnot. rewrite E. apply in_map. apply (nth_error_In _ _ Hn).
    + rewrite (IH (S s) k o Hnd' Hn). f_equal. lia.
Qed.

Lemma node_of_op_resolved all stopn o z tgt nxt pc :
  jump_index (code o) = Some (length (params o)) -> find_off z all 0 = Some tgt ->
  node_of_op all stopn (mkOp (off o) (code o) (params o ++ [PInt z])) nxt pc =
  if is_jump (code o) then NGoto tgt else NTest (code o, params o) tgt nxt.
Proof.
  intros J F. unfold node_of_op. cbn [code params].
  rewrite J, nth_error_app_last, F, remove_nth_app_last. reflexivity.
Qed.

Section RemoveSem.
  Variable fin : list (list pop).
  Variable t : label_table.
  Variable P' : program.
  Hypothesis Hrem : remove_all t fin = Ok P'.
  Hypothesis Hshape : forall r, In r fin -> shape_ok r = true /\ forallb pop_wf r = true.
  Hypothesis Hoffs : NoDup (map off (all_ops P')).
  Hypothesis Htable : table_right (concat fin) t.

  Let all1 := concat fin.
  Let N1 := length all1.
  Let L1 := annotate pop_isctx fin.
  Let all2 := all_ops P'.
  Let N2 := length all2.
  Let L2 := annotate op_isctx P'.
  Let g1 := cfg_of_pops fin.
  Let g2 := cfg_of_ssb P'.
  Let f := conv3 t.
  Let ph := phi f L1.

  Lemma remove_resolved x : In x all1 -> resolved t x.
  Proof. apply Forall_forall, Forall_concat, (remove_all_omap _ _ _ Hrem). Qed.

  Lemma remove_annotate : L2 = omap f L1.
  Proof.
    destruct (remove_all_omap _ _ _ Hrem) as [E Hres]. unfold L2, L1, f. rewrite E. apply annotate_omap. intros r Hin.
    destruct (Hshape r Hin) as [H1 H2]. split; [exact H1|]. split; [exact H2|].
    apply (proj1 (Forall_forall _ _) Hres r Hin).
  Qed.

  Lemma remove_len : length L1 = N1.  Proof. apply annotate_length. Qed.
  Lemma remove_kept_len : length (omap f L1) = N2.  Proof. rewrite <- remove_annotate. apply annotate_length. Qed.

  (* the projection [pr] of Section Filtered is the identity here *)
  Lemma remove_g1_flat : g1 = flat_cfg (pop_node all1) N1 (map (fun e => e) L1).
  Proof. rewrite map_id. apply cfg_of_pops_flat. Qed.
  Lemma remove_g2_flat : g2 = flat_cfg (op_node all2) N2 (omap f L1).
  Proof. rewrite <- remove_annotate. apply cfg_of_ssb_flat. Qed.

  Definition Rel (a b : nat) : Prop :=
    (a = S N1 /\ b = S N2) \/ (a <= N1 /\ b = ph a).

  (* by induction on the number [n] of elements from [i] on *)
  Lemma next_off_target : forall n i z, i + n = N1 -> next_off (skipn i all1) = Some z ->
    find_off z all2 0 = Some (ph i).
  Proof.
    induction n as [|n IH]; intros i z Hn Hz.
    - rewrite Nat.add_0_r in Hn. subst i. unfold N1 in Hz. rewrite skipn_all in Hz. discriminate.
    - destruct (nth_error L1 i) as [[[x last] pc]|] eqn:E; [|apply nth_error_None in E; rewrite remove_len in E; lia].
      pose proof (annotate_nth _ _ _ _ E : nth_error all1 i = _) as Ea. cbn [fst] in Ea. rewrite (skipn_nth _ _ _ Ea) in Hz.
      unfold ph. destruct (conv t x) as [o|] eqn:Ec.
      + (* an operation or label jump: this is the target *)
        assert (Ef : f (x, last, pc) = Some (o, last, pc)) by (unfold f, conv3; rewrite Ec; reflexivity).
        pose proof (phi_nth f L1 i _ _ E Ef) as Ho. rewrite <- remove_annotate in Ho. apply annotate_nth in Ho.
        rewrite (conv_off _ _ _ _ Ec) in Hz. injection Hz as <-. apply (find_off_nth all2 0 _ o Hoffs Ho).
      + (* a label: look further *)
        destruct x as [o'|l|o' l]; try discriminate (remove_resolved _ (nth_error_In _ _ Ea) Ec).
        rewrite (IH (S i) z ltac:(lia) Hz). f_equal. apply (phi_skip f L1 i _ E eq_refl).
  Qed.

  Lemma remove_entry_wf a x last pc : nth_error L1 a = Some (x, last, pc) ->
    pop_wf x = true /\ (is_label x = true -> last = false).
  Proof.
    intro H. apply nth_error_In in H. unfold L1, annotate in H. apply in_flat_map in H. destruct H as [r [Hr Hin]].
    destruct (Hshape r Hr) as [Hs Hw]. split.
    - apply (forallb_In _ _ _ Hw), (annotate_r_In _ _ _ _ _ _ Hin).
    - apply (label_not_last r false x last pc Hs Hin).
  Qed.

  Lemma remove_node_sim a e : nth_error L1 a = Some e ->
    node_sim Rel (flat_cfg (pop_node all1) N1 (map (fun e => e) L1)) (flat_cfg (op_node all2) N2 (omap f L1)) a (ph a).
  Proof.
    intro E. destruct e as [[x last] pc]. destruct (remove_entry_wf _ _ _ _ E) as [Hw Hlast].
    assert (Hnxt : forall o, f (x, last, pc) = Some o -> Rel (if last then N1 else S a) (if last then N2 else S (ph a))).
    { intros o Ef. apply (filt_succ remove_len remove_kept_len E Ef). }
    destruct x as [o|l|o l]; cbn [pop_wf] in Hw.
    - (* an operation stays what it is *)
      assert (Ef : f (POp o, last, pc) = Some (o, last, pc)) by reflexivity.
      apply (sim_kept E Ef). cbn [pop_node op_node node_of_pop]. unfold node_of_op.
      destruct (jump_index (code o)); [discriminate|].
      destruct (ends_flow (code o) && negb pc); (split; [reflexivity|]); [left; split; reflexivity | apply (Hnxt _ Ef)].
    - (* a label is a silent step to what follows it *)
      apply (sim_silent (S a) E).
      + cbn [pop_node node_of_pop]. rewrite (Hlast eq_refl). reflexivity.
      + exists (ph a). split; [apply silently_refl|]. right. split.
        * apply (filt_lt remove_len E).
        * symmetry. apply (phi_skip f L1 a _ E eq_refl).
    - (* a label jump goes where its label stands; the op carries the offset of the first op after that place *)
      pose proof (Htable l) as Htl. fold all1 in Htl.
      destruct (find_label l all1 0) as [i|] eqn:Fl.
      + destruct Htl as [z [Hz Hnext]].
        assert (Ef : f (PJump o l, last, pc) = Some (mkOp (off o) (code o) (params o ++ [PInt z]), last, pc)).
        { unfold f, conv3. cbn [conv]. rewrite Hz. reflexivity. }
        destruct (find_label_lt _ _ _ _ Fl) as [Hi _]. cbn in Hi. fold N1 in Hi.
        apply (sim_kept E Ef). cbn [pop_node op_node node_of_pop]. rewrite Fl.
        destruct (jump_index (code o)) as [idx|] eqn:J; [|discriminate]. apply Nat.eqb_eq in Hw. subst idx.
        rewrite (node_of_op_resolved _ _ _ _ _ _ _ J (next_off_target (N1 - i) i z ltac:(lia) Hnext)).
        assert (Rel i (ph i)) by (right; split; [lia | reflexivity]).
        destruct (is_jump (code o)); [assumption | split; [reflexivity | split; [assumption | apply (Hnxt _ Ef)]]].
      + assert (Ec : conv t (PJump o l) = None) by (cbn [conv]; rewrite Htl; reflexivity).
        discriminate (remove_resolved _ (nth_error_In _ _ (annotate_nth _ _ _ _ E)) Ec).
  Qed.

  (* if the pseudo code has no cycle of silent moves, related nodes behave equally *)
  Theorem remove_preserves_behaviour :
    (forall a, a <= S N1 -> exists o, reaches g1 a o) ->
    forall a b, Rel a b -> beh_eq g1 g2 a b.
  Proof.
    rewrite remove_g1_flat, remove_g2_flat. apply (filtered_beh_eq remove_len remove_kept_len remove_node_sim).
  Qed.
End RemoveSem.

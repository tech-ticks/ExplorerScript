(* Label numbers carry no meaning: pseudo code lists that agree item by item, up to a one-to-one correspondence of their
   labels (and up to the numbers of their operations, which the graph does not look at), have the same control-flow graph,
   node for node, hence the same behaviour.  Renaming by a function that is injective on the labels that occur is the
   case where the correspondence is the function's graph.  With Comp/MacroBuild.v: all expansions of a macro with the
   same arguments are the same code (Comp/ExpandSame.v). *)
From ES Require Import Base Ssb.Machine Comp.Passes Comp.PopSem.

Definition rename_pop (f : nat -> nat) (x : pop) : pop :=
  match x with
  | POp o => POp o
  | PLabel l => PLabel (f l)
  | PJump o l => PJump o (f l)
  end.

Definition pop_labels (x : pop) : list nat :=
  match x with POp _ => [] | PLabel l => [l] | PJump _ l => [l] end.

Definition inj_on (f : nat -> nat) (ls : list nat) : Prop :=
  forall a b, In a ls -> In b ls -> f a = f b -> a = b.

Definition rename_prog (f : nat -> nat) (rs : list (list pop)) : list (list pop) := map (map (rename_pop f)) rs.

Definition pop_rel (R : nat -> nat -> Prop) (x y : pop) : Prop :=
  match x, y with
  | POp o, POp o' => code o = code o' /\ params o = params o'
  | PLabel l, PLabel l' => R l l'
  | PJump o l, PJump o' l' => code o = code o' /\ params o = params o' /\ R l l'
  | _, _ => False
  end.

Definition biunique {A B} (R : A -> B -> Prop) : Prop := forall a a' b b', R a a' -> R b b' -> (a = b <-> a' = b').

Section Related.
  Variable R : nat -> nat -> Prop.
  Hypothesis HR : biunique R.

  Lemma find_label_rel l l' a b : R l l' -> Forall2 (pop_rel R) a b -> forall i, find_label l a i = find_label l' b i.
  Proof.
    intros Hl H. induction H as [|x y a b Hxy _ IH]; intros i; [reflexivity|].
    destruct x as [o|k|o k], y as [o'|k'|o' k']; try contradiction; cbn [find_label]; try apply IH.
    rewrite (eq_true_iff_eq (Nat.eqb k l) (Nat.eqb k' l')) by (rewrite !Nat.eqb_eq; exact (HR _ _ _ _ Hxy Hl)).
    destruct (Nat.eqb k' l'); [reflexivity | apply IH].
  Qed.

  Lemma pname_rel x y : pop_rel R x y -> pname x = pname y.
  Proof. destruct x, y; cbn; intros H; try contradiction; try reflexivity; apply H. Qed.

  Variables (all all' : list pop) (fall stopn : nat).
  Hypothesis Hall : Forall2 (pop_rel R) all all'.

  Lemma node_of_pop_related x y nxt pc : pop_rel R x y -> node_of_pop all stopn x nxt pc = node_of_pop all' stopn y nxt pc.
  Proof.
    destruct x as [o|k|o k], y as [o'|k'|o' k']; try contradiction; cbn [pop_rel node_of_pop].
    - intros [-> ->]. reflexivity.
    - reflexivity.
    - intros (-> & -> & Hk). rewrite (find_label_rel _ _ _ _ Hk Hall). reflexivity.
  Qed.

  Lemma nodes_of_pops_rel r r' : Forall2 (pop_rel R) r r' ->
    forall g pc, nodes_of_pops all fall stopn r g pc = nodes_of_pops all' fall stopn r' g pc.
  Proof.
    induction 1 as [|x y r r' Hxy Hr IH]; intros g pc; [reflexivity|].
    cbn [nodes_of_pops]. rewrite (pname_rel _ _ Hxy), IH, (node_of_pop_related _ _ _ _ Hxy). destruct Hr; reflexivity.
  Qed.

  Lemma nodes_of_pop_program_rel rs rs' : Forall2 (Forall2 (pop_rel R)) rs rs' ->
    forall g, nodes_of_pop_program all fall stopn rs g = nodes_of_pop_program all' fall stopn rs' g /\
              pop_entries_of rs g = pop_entries_of rs' g.
  Proof.
    induction 1 as [|r r' rs rs' Hr _ IH]; intros g; [split; reflexivity|].
    cbn [nodes_of_pop_program pop_entries_of].
    rewrite (nodes_of_pops_rel _ _ Hr), (Forall2_length _ _ _ Hr). destruct (IH (g + length r')) as [-> ->].
    destruct Hr; split; reflexivity.
  Qed.
End Related.

Theorem related_same_cfg R rs rs' : biunique R -> Forall2 (Forall2 (pop_rel R)) rs rs' ->
  cfg_of_pops rs = cfg_of_pops rs' /\ pop_entries rs = pop_entries rs'.
Proof.
  intros HR H. pose proof (Forall2_concat _ _ _ H) as Hall. unfold cfg_of_pops, pop_entries.
  rewrite (Forall2_length _ _ _ Hall).
  destruct (nodes_of_pop_program_rel R HR _ _ (length (concat rs')) (S (length (concat rs'))) Hall _ _ H 0) as [-> ->].
  split; reflexivity.
Qed.

Theorem rename_same_cfg f rs :
  inj_on f (flat_map pop_labels (concat rs)) ->
  cfg_of_pops (rename_prog f rs) = cfg_of_pops rs /\ pop_entries (rename_prog f rs) = pop_entries rs.
Proof.
  intros Hinj. set (ls := flat_map pop_labels (concat rs)) in Hinj.
  destruct (related_same_cfg (fun a a' => In a ls /\ a' = f a) rs (rename_prog f rs)) as [-> ->].
  - intros a a' b b' [Ha ->] [Hb ->]. split; [congruence | apply Hinj; assumption].
  - apply Forall2_map_r. intros r Hr. apply Forall2_map_r. intros x Hx.
    assert (Hl : forall l, In l (pop_labels x) -> In l ls).
    { intros l Hl. apply in_flat_map. exists x. split; [apply in_concat; eauto | exact Hl]. }
    destruct x; cbn; repeat split; apply Hl; left; reflexivity.
  - split; reflexivity.
Qed.

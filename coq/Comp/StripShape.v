(* strip_last_label leaves no routine that ends in a label (one of the premises of the back-end theorem). *)
From ES Require Import Base Comp.Passes.

Lemma strip_sweep_length l r : forall prev obe, length (strip_sweep l r prev obe) <= length r.
Proof.
  induction r as [|x r IH]; intros prev obe; [apply le_n|].
  cbn [strip_sweep]. destruct x as [o|l'|o l']; [apply le_n_S, IH | apply le_n_S, IH |].
  destruct (Nat.eqb l' l); [destruct obe; [apply le_S, IH | apply le_n_S, IH] | apply le_n_S, IH].
Qed.

Lemma last_label_split r l : last_label r = Some l -> r = removelast r ++ [PLabel l].
Proof.
  unfold last_label. intro H. destruct r as [|x r'] using rev_ind; [discriminate|].
  rewrite rev_app_distr in H. cbn [rev app] in H. destruct x; try discriminate. injection H as ->.
  rewrite removelast_last. reflexivity.
Qed.

Lemma strip_routine_inv (I : list pop -> Prop) :
  (forall l r, I (r ++ [PLabel l]) -> I (strip_sweep l r None false)) ->
  forall fuel r, I r -> I (strip_routine fuel r).
Proof.
  intro Hround. induction fuel as [|fuel IH]; intros r Hr; cbn [strip_routine]; [exact Hr|].
  destruct (last_label r) as [l|] eqn:E; [|exact Hr].
  apply IH, Hround. rewrite <- (last_label_split r l E). exact Hr.
Qed.

Theorem strip_routine_no_trailing_label : forall fuel r, length r <= fuel -> last_label (strip_routine fuel r) = None.
Proof.
  induction fuel as [|fuel IH]; intros r Hlen.
  - destruct r; [reflexivity | cbn in Hlen; lia].
  - cbn [strip_routine]. destruct (last_label r) as [l|] eqn:E; [|exact E].
    apply IH. pose proof (strip_sweep_length l (removelast r) None false).
    rewrite (last_label_split r l E), last_length in Hlen. lia.
Qed.

Theorem strip_no_trailing_label rs : forall r, In r (strip rs) -> last_label r = None.
Proof.
  unfold strip. intros r Hin. apply in_map_iff in Hin. destruct Hin as [r0 [<- _]].
  apply strip_routine_no_trailing_label. lia.
Qed.

(* `return` leaves only the macro, in the graph: wherever an expansion stands in a routine, the label that the jumps
   replacing Return operations go to is found at the last item of this expansion - the node whose successor is whatever
   follows the macro call. *)
From ES Require Import Base Comp.Passes Comp.PopSem Comp.MacroBuild Comp.MacroBuildProofs Comp.ExpandSame.

Lemma find_label_skip l : forall a b i,
  ~ In (PLabel l) a -> find_label l (a ++ b) i = find_label l b (i + length a).
Proof.
  induction a as [|x a IH]; intros b i H; [cbn [app length]; rewrite Nat.add_0_r; reflexivity|].
  apply not_in_cons in H as [Hx Ha]. cbn [app length]. rewrite <- Nat.add_succ_comm, <- (IH b (S i) Ha).
  destruct x as [o | l' | o l']; try reflexivity.
  cbn [find_label]. destruct (Nat.eqb_spec l' l) as [->|_]; [contradiction | reflexivity].
Qed.

Theorem return_goes_behind_the_expansion s bp cl co out cl' co' pre post :
  build s bp cl co = (out, cl', co') ->
  (forall x, In x pre -> x <> PLabel (S (S cl))) ->
  find_label (S (S cl)) (pre ++ map pop_of_oitem out ++ post) 0 = Some (length pre + length out - 1) /\
  nth_error (map pop_of_oitem out) (length out - 1) = Some (PLabel (S (S cl))).
Proof.
  intros B Hpre. destruct (build_is_renaming s bp cl co) as (rho & c1 & E & _ & Hr & _).
  rewrite E in B. injection B as <- _ _.
  assert (Hbody : ~ In (PLabel (S (S cl))) (map pop_of_oitem (renamed s (S (S cl)) rho bp co))).
  { intros H. apply in_map_iff in H as ([|l k|] & [= ->] & Hin). exact (end_label_only_at_end _ _ _ _ _ _ Hr _ Hin). }
  cbn [map pop_of_oitem length]. rewrite map_app, app_length, <- (map_length pop_of_oitem (renamed _ _ _ _ _)), Nat.add_1_r.
  set (body := map pop_of_oitem (renamed s (S (S cl)) rho bp co)) in *. cbn [map pop_of_oitem length]. split.
  - rewrite find_label_skip by (intros H; exact (Hpre _ H eq_refl)). cbn [app find_label].
    rewrite (proj2 (Nat.eqb_neq (S cl) (S (S cl))) (Nat.neq_succ_diag_r _)).
    rewrite <- app_assoc, find_label_skip by exact Hbody.
    cbn [app find_label]. rewrite Nat.eqb_refl, <- !plus_n_Sm. reflexivity.
  - cbn [Nat.sub nth_error]. apply nth_error_app_last.
Qed.

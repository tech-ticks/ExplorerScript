(* Return addresses of nested macro expansions: what [exec] registers for the flat form of a nesting is what the
   specification [spec_f] says, for every nesting, counter and stack ([exec_flat]). *)
From ES Require Import Base Comp.MacroRA.

Scheme tree_mind := Induction for tree Sort Prop
with forest_mind := Induction for forest Sort Prop.
Combined Scheme tree_forest_ind from tree_mind, forest_mind.

Lemma exec_app a : forall b c st,
  exec (a ++ b) c st = exec a c st ++ exec b (fst (after a c st)) (snd (after a c st)).
Proof.
  induction a as [|x a IH]; intros b c st; [reflexivity|].
  destruct x; cbn [app exec after]; rewrite IH; reflexivity.
Qed.

Lemma after_app a : forall b c st, after (a ++ b) c st = after b (fst (after a c st)) (snd (after a c st)).
Proof.
  induction a as [|x a IH]; intros b c st; [reflexivity|].
  destruct x; cbn [app after]; rewrite IH; reflexivity.
Qed.

(* [hd 0 st], not a stack [R :: st]: an operation that stands directly in the list gets the top of the stack; a call
   pushes its own address, so it needs no stack around it *)
Lemma exec_flat :
  (forall t c st, exec (flat_t t) c st = spec_t t c (hd 0 st) /\ after (flat_t t) c st = (c + ops_t t, st)) /\
  (forall f c st, exec (flat_f f) c st = spec_f f c (hd 0 st) /\ after (flat_f f) c st = (c + ops_f f, st)).
Proof.
  apply tree_forest_ind.
  - intros c st. cbn. rewrite Nat.add_1_r. split; reflexivity.
  - intros c st. cbn. rewrite Nat.add_0_r. split; reflexivity.
  - intros b IH c st. cbn [flat_t exec after spec_t ops_t].
    destruct (IH c ((c + S (ops_f b)) :: st)) as [E A].
    split.
    + rewrite exec_app, E, A. apply app_nil_r.
    + rewrite after_app, A. reflexivity.
  - intros c st. cbn. rewrite Nat.add_0_r. split; reflexivity.
  - intros t IHt f IHf c st. cbn [flat_f spec_f ops_f].
    destruct (IHt c st) as [E1 A1]. destruct (IHf (c + ops_t t) st) as [E2 A2].
    split.
    + rewrite exec_app, E1, A1. cbn [fst snd]. rewrite E2. reflexivity.
    + rewrite after_app, A1. cbn [fst snd]. rewrite A2, Nat.add_assoc. reflexivity.
Qed.

(* a macro call: the expansion of body b built when the counter is c *)
Theorem call_return_addresses b c st :
  exec (flat_t (TCall b)) c st = spec_f b c (c + S (ops_f b)) /\
  after (flat_t (TCall b)) c st = (c + ops_f b, st).
Proof. exact (proj1 exec_flat (TCall b) c st). Qed.

(* a return address is the one in force around the list (R) or that of a nested call, which lies after the operation and
   not after the first operation that follows the list *)
Lemma spec_bounds :
  (forall t c R i r, In (i, r) (spec_t t c R) -> c < i <= c + ops_t t /\ (r = R \/ (i < r <= c + ops_t t + 1))) /\
  (forall f c R i r, In (i, r) (spec_f f c R) -> c < i <= c + ops_f f /\ (r = R \/ (i < r <= c + ops_f f + 1))).
Proof.
  apply tree_forest_ind.
  - intros c R i r [[= <- <-]|[]]. cbn. split; [lia | left; reflexivity].
  - intros c R i r [].
  - intros b IH c R i r H. cbn [spec_t ops_t] in *. apply IH in H. lia.
  - intros c R i r [].
  - intros t IHt f IHf c R i r H. cbn [spec_f ops_f] in *. apply in_app_or in H. destruct H as [H|H].
    + apply IHt in H. lia.
    + apply IHf in H. lia.
Qed.

Theorem return_address_bounds b c i r :
  In (i, r) (spec_f b c (c + S (ops_f b))) -> c < i <= c + ops_f b /\ i < r <= c + ops_f b + 1.
Proof.
  intro H. apply (proj2 spec_bounds) in H. lia.
Qed.

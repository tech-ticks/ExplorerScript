(* One round of strip_last_label for a label l (sweep the routine that ends in l for jumps to l, then drop l) as an
   instance of Comp/ActSem.v; then all rounds and all routines.  The round is described for every routine alike, as
   one pass over the routine that also drops the label l if it meets it at the end ([sweep]): it changes nothing in a
   routine that holds neither a jump to l nor l itself. *)
From ES Require Import Base Ssb.Cfg Ssb.Tables Ssb.Machine Ssb.Silent Comp.Passes Comp.PopSem Comp.Flat
  Comp.StripShape Comp.RemoveSem Comp.TableRight Comp.BackEnd Comp.FinalizeSem Comp.ActSem.

(* nothing but an operation directly follows a context op (a routine may still end in a label here) *)
Fixpoint shape3 (r : list pop) : bool :=
  match r with
  | [] => true
  | x :: rest =>
      match rest with
      | [] => true
      | y :: _ => negb (pop_isctx x && (is_label y || match y with PJump _ _ => true | _ => false end)) && shape3 rest
      end
  end.

Lemma shape3_cons x r : shape3 (x :: r) = true ->
  shape3 r = true /\ match r with PJump _ _ :: _ => pop_isctx x = false | _ => True end.
Proof.
  cbn [shape3]. destruct r as [|y r]; [auto|]. intro H. apply andb_prop in H as [H1 H2]. split; [exact H2|].
  destruct y; trivial. apply negb_true_iff in H1. rewrite andb_true_r in H1. exact H1.
Qed.

Lemma isctx_label l : pop_isctx (PLabel l) = false.
Proof. reflexivity. Qed.

Definition jumps_to (l : nat) (x : pop) : bool := match x with PJump _ l' => Nat.eqb l' l | _ => false end.

Lemma jumps_to_inv l x : jumps_to l x = true -> exists o, x = PJump o l.
Proof. destruct x as [|l'|o l']; try discriminate. intro H. apply Nat.eqb_eq in H. subst l'. exists o. reflexivity. Qed.

(* strip_sweep reads its state [prev] only for whether that element is a context op, and this is the flag the
   annotated list holds for the element at hand: the state below is that flag and [obe]. *)
Definition pc_of (prev : option pop) : bool := match prev with Some p => pop_isctx p | None => false end.

Definition ends_at (x : pop) (pc : bool) : bool :=
  match x with POp o | PJump o _ => negb pc && ends_flow (code o) | PLabel _ => false end.

Lemma ends_cf_at x prev : ends_cf x prev = ends_at x (pc_of prev).
Proof. unfold ends_cf, pc_of, pop_isctx. destruct prev as [p|]; [destruct (is_ctx (pname p))|]; destruct x; reflexivity. Qed.

Lemma ends_flow_jump_code c : jump_index c <> None -> ends_flow c = true -> is_jump c = true.
Proof.
  intros H He. pose proof (jump_table_all (fun c => implb (ends_flow c) (is_jump c)) eq_refl c H) as Hi.
  cbn beta in Hi. rewrite He in Hi. exact Hi.
Qed.

Lemma ends_at_falls x pc : pop_wf x = true -> ends_at x pc = true -> falls_through (x, false, pc) = false.
Proof.
  destruct x as [o| |o l']; cbn [ends_at falls_through pop_wf]; intros Hw H; [| discriminate H |];
    apply andb_prop in H as [Hpc He].
  - rewrite He, Hpc. reflexivity.
  - rewrite ends_flow_jump_code; [reflexivity | destruct (jump_index (code o)); discriminate | exact He].
Qed.

(* the test by which [annotate_r] marks the last element of a routine *)
Definition empty (r : list pop) : bool := match r with [] => true | _ => false end.

Definition trailing (l : nat) (x : pop) (rest : list pop) : bool := empty rest && defines l x.

Lemma trailing_inv l x rest : trailing l x rest = true -> x = PLabel l /\ rest = [].
Proof.
  intro H. apply andb_prop in H as [Hr Hx]. destruct rest; [|discriminate]. destruct x as [|l'|]; try discriminate.
  apply Nat.eqb_eq in Hx. subst l'. split; reflexivity.
Qed.

Lemma trailing_snoc l x body y : trailing l x (body ++ [y]) = false.
Proof. destruct body; reflexivity. Qed.

(* What a round for the label [l] does with one element of a routine: the action (still waiting to be told whether
   everything after the element is dropped, which makes the element the last of its routine), and [obe] for the
   rest.  The first case is the end of the round, the other three are the sweep. *)
Definition sweep_step (l : nat) (x : pop) (rest : list pop) (pc obe : bool) : (bool -> action) * bool :=
  if trailing l x rest then (fun _ => ADead, obe)
  else if jumps_to l x then
    if obe then (fun _ => ADead, true) else (fun sl => ARepl sl (dummy_end (pop_off x)), false)
  else (AKeep, ends_at x pc).

Definition emit (x : pop) (a : action) : list pop :=
  match a with AKeep _ => [x] | ARepl _ x' => [x'] | ADead => [] end.

Fixpoint sweep (l : nat) (r : list pop) (pc obe : bool) : list pop :=
  match r with
  | [] => []
  | x :: rest => let '(act, obe') := sweep_step l x rest pc obe in emit x (act false) ++ sweep l rest (pop_isctx x) obe'
  end.

Lemma strip_sweep_eq l body : forall prev obe, strip_sweep l body prev obe = sweep l (body ++ [PLabel l]) (pc_of prev) obe.
Proof.
  induction body as [|x body IH]; intros prev obe.
  { cbn [app sweep]. unfold sweep_step, trailing. cbn [empty defines andb]. rewrite Nat.eqb_refl. reflexivity. }
  cbn [app sweep]. unfold sweep_step. rewrite trailing_snoc.
  destruct x as [o|l'|o l']; cbn [strip_sweep jumps_to].
  - rewrite IH, ends_cf_at. reflexivity.
  - rewrite IH. reflexivity.
  - (* after a dropped jump strip_sweep remembers the jump, after a replaced one the dummy end: neither is a context op *)
    destruct (Nat.eqb l' l); [destruct obe|]; rewrite IH, ?ends_cf_at; reflexivity.
Qed.

Lemma sweep_id l r : forallb (fun x => negb (jumps_to l x)) r = true -> ~ In (PLabel l) r ->
  forall pc obe, sweep l r pc obe = r.
Proof.
  induction r as [|x r IH]; intros H Hl pc obe; [reflexivity|]. cbn [forallb] in H. apply andb_prop in H as [Hx Hr].
  cbn [sweep]. unfold sweep_step. destruct (trailing l x r) eqn:T.
  - destruct (trailing_inv _ _ _ T) as [-> _]. destruct (Hl (or_introl eq_refl)).
  - apply negb_true_iff in Hx. rewrite Hx. cbn [emit app]. rewrite (IH Hr); [reflexivity | intro Hin; apply Hl; right; exact Hin].
Qed.

Fixpoint racts (l : nat) (r : list pop) (pc obe : bool) : list action :=
  match r with
  | [] => []
  | x :: rest =>
      let '(act, obe') := sweep_step l x rest pc obe in
      act (empty (sweep l rest (pop_isctx x) obe')) :: racts l rest (pop_isctx x) obe'
  end.

Lemma racts_length l r : forall pc obe, length (racts l r pc obe) = length r.
Proof.
  induction r as [|x r IH]; intros pc obe; [reflexivity|].
  cbn [racts]. destruct (sweep_step l x r pc obe) as [act obe']. cbn [length]. rewrite IH. reflexivity.
Qed.

Definition swept (l : nat) (r : list pop) (pc obe : bool) := combine (annotate_r pop_isctx r pc) (racts l r pc obe).

Lemma swept_cons l x rest pc obe :
  swept l (x :: rest) pc obe =
  let st := sweep_step l x rest pc obe in
  ((x, empty rest, pc), fst st (empty (sweep l rest (pop_isctx x) (snd st)))) :: swept l rest (pop_isctx x) (snd st).
Proof. unfold swept. cbn [annotate_r racts]. destruct (sweep_step l x rest pc obe) as [act obe']. reflexivity. Qed.

(* an element becomes the last of its routine exactly if it was, or everything after it is dropped *)
Lemma sets_last_nil l rest pc obe : empty rest || empty (sweep l rest pc obe) = empty (sweep l rest pc obe).
Proof. destruct rest; reflexivity. Qed.

(* what the round needs to know of a routine: its shape, and that a jump at its head does not follow a context op *)
Definition sweepable (r : list pop) (pc : bool) : Prop :=
  shape3 r = true /\ match r with PJump _ _ :: _ => pc = false | _ => True end.

Lemma sweepable_cons l x rest pc : sweepable (x :: rest) pc ->
  sweepable rest (pop_isctx x) /\ (jumps_to l x = true -> pc = false).
Proof.
  intros [Hs Hpc]. apply shape3_cons in Hs as [Hs Hnext]. split; [split; [exact Hs|]|].
  - destruct rest as [|[]]; exact Hnext || exact I.
  - destruct x; try discriminate. intros _. exact Hpc.
Qed.

Lemma annotate_r_sweep l r : forall pc obe, sweepable r pc ->
  annotate_r pop_isctx (sweep l r pc obe) pc = omap conv_act (swept l r pc obe).
Proof.
  induction r as [|x rest IH]; intros pc obe H; [reflexivity|].
  apply (sweepable_cons l) in H as [H Hpc]. rewrite swept_cons. cbn [sweep]. unfold sweep_step.
  destruct (trailing l x rest) eqn:T; [|destruct (jumps_to l x) eqn:J; [destruct obe|]];
    cbn [fst snd]; rewrite omap_cons; cbn [conv_act emit app annotate_r].
  - destruct (trailing_inv _ _ _ T) as [_ ->]. reflexivity.
  - (* dropped: a jump, which is no context op and, by the shape, not directly behind one *)
    rewrite (Hpc eq_refl). destruct (jumps_to_inv l x J) as [o ->]. apply (IH _ _ H).
  - destruct (jumps_to_inv l x J) as [o ->]. rewrite sets_last_nil. f_equal. apply (IH _ _ H).
  - rewrite sets_last_nil, (IH _ _ H). reflexivity.
Qed.

Definition entry_ok (l : nat) (c : (pop * bool * bool) * action) : Prop :=
  let '((x, _, pc), act) := c in
  match act with
  | AKeep _ => jumps_to l x = false
  | ARepl _ x' => jumps_to l x = true /\ x' = dummy_end (pop_off x) /\ pc = false
  | ADead => jumps_to l x = true \/ x = PLabel l
  end.

Lemma swept_entries l r : forall pc obe, sweepable r pc -> Forall (entry_ok l) (swept l r pc obe).
Proof.
  induction r as [|x rest IH]; intros pc obe H; [constructor|].
  apply (sweepable_cons l) in H as [H Hpc]. rewrite swept_cons. unfold sweep_step.
  destruct (trailing l x rest) eqn:T; [|destruct (jumps_to l x) eqn:J; [destruct obe|]];
    (constructor; [|apply (IH _ _ H)]); cbn [fst entry_ok].
  - right. apply (trailing_inv _ _ _ T).
  - left. exact J.
  - split; [exact J | split; [reflexivity | exact (Hpc eq_refl)]].
  - exact J.
Qed.

(* while the sweep does not take the control flow to have ended, the next element is not dropped - unless it is the
   trailing label *)
Lemma swept_head l r pc : empty r = false ->
  if empty (sweep l r pc false)
  then exists pcl, nth_error (swept l r pc false) 0 = Some ((PLabel l, true, pcl), ADead)
  else forall c, nth_error (swept l r pc false) 0 <> Some (c, ADead).
Proof.
  destruct r as [|z rest]; [discriminate|]. intros _. rewrite swept_cons. cbn [sweep]. unfold sweep_step.
  destruct (trailing l z rest) eqn:T.
  - destruct (trailing_inv _ _ _ T) as [-> ->]. eexists. reflexivity.
  - destruct (jumps_to l z); cbn [fst emit app empty nth_error]; intros c [= _ E]; discriminate E.
Qed.

(* an element that is not dropped knows whether it becomes the last of its routine, and if it falls through, it has
   not ended the flow *)
Lemma step_live l x rest pc obe sl : let st := sweep_step l x rest pc obe in
  fst st sl <> ADead ->
  sets_last (fst st sl) = sl /\ (pop_wf x = true -> falls_through (x, false, pc) = true -> snd st = false).
Proof.
  unfold sweep_step. destruct (trailing l x rest); [|destruct (jumps_to l x); [destruct obe|]]; cbn [fst snd sets_last];
    intro Hact; try destruct (Hact eq_refl); (split; [reflexivity|]); intros Hw Hft; [reflexivity|].
  destruct (ends_at x pc) eqn:E; [rewrite (ends_at_falls x pc Hw E) in Hft; discriminate | reflexivity].
Qed.

(* an element that falls through is followed by an element that is kept - or, when it becomes the last of its
   routine, by the dropped trailing label *)
Lemma swept_next l r : forall pc obe j x pc' act,
  forallb pop_wf r = true ->
  nth_error (swept l r pc obe) j = Some ((x, false, pc'), act) -> act <> ADead ->
  falls_through (x, false, pc') = true ->
  if sets_last act
  then exists pcl, nth_error (swept l r pc obe) (S j) = Some ((PLabel l, true, pcl), ADead)
  else forall c, nth_error (swept l r pc obe) (S j) <> Some (c, ADead).
Proof.
  induction r as [|y rest IH]; intros pc obe j x pc' act Hwf Hn Hact Hft; [destruct j; discriminate|].
  cbn [forallb] in Hwf. apply andb_prop in Hwf as [Hwy Hwf]. rewrite swept_cons in Hn |- *. cbn zeta in Hn |- *.
  destruct j as [|j]; [|apply (IH _ _ j x pc' act Hwf Hn Hact Hft)].
  injection Hn as <- Hlast <- <-. cbn [nth_error].
  destruct (step_live l y rest pc obe _ Hact) as [-> Hobe]. rewrite (Hobe Hwy Hft). apply (swept_head _ _ _ Hlast).
Qed.

Lemma swept_first l x rest pc : trailing l x rest = false ->
  sweep l (x :: rest) pc false <> [] /\ forall c, nth_error (swept l (x :: rest) pc false) 0 = Some c -> snd c <> ADead.
Proof.
  intro T. rewrite swept_cons. cbn [sweep]. unfold sweep_step. rewrite T.
  destruct (jumps_to l x); cbn [fst snd]; (split; [discriminate | intros c [= <-]; discriminate]).
Qed.

Definition round_tr (l : nat) (r : list pop) : list pop := sweep l r false false.
Definition round_acts (l : nat) (r : list pop) : list action := racts l r false false.
Definition round_list (l : nat) (r : list pop) := combine (annotate_r pop_isctx r false) (round_acts l r).

Lemma round_sweepable r : shape3 r = true -> sweepable r false.
Proof. intro Hs. split; [exact Hs | destruct r as [|[]]; trivial]. Qed.

Lemma round_list_length l r : length (round_list l r) = length r.
Proof. unfold round_list, round_acts. rewrite combine_length, annotate_r_length, racts_length. apply Nat.min_id. Qed.

Lemma round_list_omap l r : shape3 r = true -> annotate_r pop_isctx (round_tr l r) false = omap conv_act (round_list l r).
Proof. intro H. apply (annotate_r_sweep l r false false), round_sweepable, H. Qed.

Lemma round_list_first l r : r <> [PLabel l] ->
  (r <> [] -> round_tr l r <> []) /\ forall c, nth_error (round_list l r) 0 = Some c -> snd c <> ADead.
Proof.
  intro Hne. destruct r as [|x rest]; [split; [intro H; destruct (H eq_refl) | intros c H; discriminate H]|].
  destruct (swept_first l x rest false) as [H1 H2]; [|split; [intros _; exact H1 | exact H2]].
  destruct (trailing l x rest) eqn:T; [|reflexivity]. destruct (trailing_inv _ _ _ T) as [-> ->]. destruct (Hne eq_refl).
Qed.

Section OneRound.
  Variable rs : list (list pop).
  Variable l : nat.
  Hypothesis Hshape : forall r, In r rs -> shape3 r = true.
  Hypothesis Hwf : forall r, In r rs -> forallb pop_wf r = true.
  (* a routine of nothing but the label [l] would become empty and lose its entry *)
  Hypothesis Hbody : forall r, In r rs -> r <> [PLabel l].
  Hypothesis Hlab : NoDup (labels_of (concat rs)).
  Hypothesis Hdef : forall o l', In (PJump o l') (concat rs) -> find_label l' (concat rs) 0 <> None.
  Hypothesis Hplain : forall o, In (PJump o l) (concat rs) -> is_jump (code o) = true.
  Hypothesis Hend : exists body, In (body ++ [PLabel l]) rs.

  Let acts := flat_map (round_acts l) rs.
  Let rs2 := map (round_tr l) rs.
  Let C1 := combine (annotate pop_isctx rs) acts.

  Lemma round_list_flat : C1 = flat_map (round_list l) rs.
  Proof. apply flat_map_combine. intro r. unfold round_acts. rewrite annotate_r_length, racts_length. reflexivity. Qed.

  Lemma round_acts_concat_length : length acts = length (concat rs).
  Proof. apply flat_map_length_concat. intro r. apply racts_length. Qed.

  Lemma round_annotate : annotate pop_isctx rs2 = omap conv_act C1.
  Proof. rewrite round_list_flat. apply annotate_map_omap. intros r Hr. apply round_list_omap, Hshape, Hr. Qed.

  Lemma round_entry_ok c : In c C1 -> entry_ok l c.
  Proof.
    rewrite round_list_flat. intro H. apply in_flat_map in H. destruct H as (r & Hr & H).
    apply (proj1 (Forall_forall _ _) (swept_entries l r false false (round_sweepable r (Hshape r Hr))) c H).
  Qed.

  (* labels are never dropped, except the trailing [l], to which no kept jump goes *)
  Lemma round_keptjump : forall a o l' last pc sl i,
    nth_error C1 a = Some ((PJump o l', last, pc), AKeep sl) ->
    find_label l' (concat rs) 0 = Some i -> alive rs acts i.
  Proof.
    intros a o l' last pc sl i Ha Fl [[x last'] pc'] He. fold C1 in He.
    pose proof (round_entry_ok _ (nth_error_In _ _ Ha)) as Hk. pose proof (round_entry_ok _ (nth_error_In _ _ He)) as Hd.
    pose proof (pf_nth_all round_acts_concat_length He) as Hx. cbn [fst] in Hx.
    destruct (find_label_lt _ _ _ _ Fl) as [_ Hl]. rewrite Nat.sub_0_r, Hx in Hl. injection Hl as ->.
    cbn [entry_ok jumps_to] in Hk, Hd. destruct Hd as [Hd|[= ->]]; [discriminate Hd | rewrite Nat.eqb_refl in Hk; discriminate Hk].
  Qed.

  Lemma round_repl : forall a x last pc sl x',
    nth_error C1 a = Some ((x, last, pc), ARepl sl x') ->
    exists o l0 i pcl, x = PJump o l0 /\ is_jump (code o) = true /\ find_label l0 (concat rs) 0 = Some i /\
      nth_error (annotate pop_isctx rs) i = Some (PLabel l0, true, pcl) /\ pc = false /\ exists z, x' = POp (mkOp z OP_RETURN []).
  Proof.
    intros a x last pc sl x' Ha. destruct (round_entry_ok _ (nth_error_In _ _ Ha)) as (J & -> & ->).
    destruct (jumps_to_inv l x J) as [o ->]. destruct Hend as (body & Hr).
    destruct (annotate_r_snoc pop_isctx body (PLabel l) false) as [pcl Hin].
    assert (Hin' : In (PLabel l, true, pcl) (annotate pop_isctx rs)) by (apply in_flat_map; eauto).
    apply In_nth_error in Hin'. destruct Hin' as [i Hi]. exists o, l, i, pcl.
    repeat split; [| | exact Hi | eexists; reflexivity].
    - apply Hplain, (nth_error_In _ a), (pf_nth_all round_acts_concat_length Ha).
    - apply (find_label_unique l (concat rs) 0 i Hlab (annotate_nth _ _ _ _ Hi)).
  Qed.

  Lemma round_next : forall a x pc act,
    nth_error C1 a = Some ((x, false, pc), act) -> act <> ADead -> falls_through (x, false, pc) = true ->
    match act with
    | AKeep true | ARepl true _ => deadlabel rs acts (S a)
    | _ => alive rs acts (S a)
    end.
  Proof.
    intros a x pc act Ha Hact Hft.
    assert (Hs : if sets_last act then deadlabel rs acts (S a) else alive rs acts (S a)).
    { unfold deadlabel, alive. fold C1. rewrite round_list_flat in *. destruct (flat_map_nth _ _ _ _ Ha) as (r & j & Hr & Hj & Hn).
      (* not the last of its routine: the next entry is in the same routine *)
      rewrite Hn by (rewrite round_list_length; apply (annotate_r_not_last _ _ _ _ _ _ (proj1 (nth_combine _ _ _ _ _ Hj)))).
      pose proof (swept_next l r false false j x pc act (Hwf r Hr) Hj Hact Hft) as Hs.
      destruct (sets_last act); [destruct Hs as [pcl Hs]; exists l, pcl; exact Hs | exact Hs]. }
    destruct act as [[|]|[|] ?|]; exact Hs.
  Qed.

  Theorem round_preserves :
    (forall a, a <= S (length (concat rs)) -> exists o, reaches (cfg_of_pops rs) a o) ->
    forall a b, ARel rs rs2 acts a b -> beh_eq (cfg_of_pops rs) (cfg_of_pops rs2) a b.
  Proof.
    apply (act_preserves_behaviour rs rs2 acts round_acts_concat_length round_annotate round_keptjump round_repl round_next Hdef).
  Qed.

  Lemma round_entries : Forall2 (entry_rel (ARel rs rs2 acts)) (pop_entries rs) (pop_entries rs2).
  Proof.
    eapply entries_mono; [|apply (filtered_entries (round_list l) (round_tr l) conv_act (fun c => snd c <> ADead) rs [])].
    - cbn [app]. rewrite <- round_list_flat. intros a b (Hle & HQ & ->). right. left.
      unfold C1 in Hle. rewrite (act_len rs acts round_acts_concat_length) in Hle. split; [exact Hle|]. split; [|reflexivity].
      intros e He. apply (HQ _ He). reflexivity.
    - intros r Hr. split; [apply round_list_length|]. split; [rewrite <- (round_list_omap l r (Hshape r Hr)); apply annotate_r_length|].
      apply (round_list_first l r (Hbody r Hr)).
  Qed.
End OneRound.

Definition plain_if_to (l : nat) (x : pop) : bool :=
  match x with PJump o l' => if Nat.eqb l' l then is_jump (code o) else true | _ => true end.

(* the side conditions of one round as a boolean *)
Definition round_ok (pre : list (list pop)) (body : list pop) (l : nat) (post : list (list pop)) : bool :=
  let rs := pre ++ (body ++ [PLabel l]) :: post in
  forallb shape3 rs && forallb (forallb pop_wf) rs && nodup_nat (labels_of (concat rs)) && jumps_defined rs &&
  forallb (fun x => negb (jumps_to l x)) (concat pre ++ concat post) && forallb (plain_if_to l) body &&
  negb (silent_cycle (cfg_of_pops rs)) && match body with [] => false | _ => true end.

(* the other routines neither hold the label [l] nor a jump to it, so the round leaves them as they are *)
Lemma round_tr_map pre body l post :
  (forall r, In r pre \/ In r post -> ~ In (PLabel l) r /\ forallb (fun x => negb (jumps_to l x)) r = true) ->
  map (round_tr l) (pre ++ (body ++ [PLabel l]) :: post) = pre ++ strip_sweep l body None false :: post.
Proof.
  intro Hother. rewrite map_app. cbn [map]. rewrite (strip_sweep_eq l body None false).
  assert (Hid : forall rs', (forall r, In r rs' -> In r pre \/ In r post) -> map (round_tr l) rs' = rs').
  { intros rs' H'. transitivity (map (fun r => r) rs'); [|apply map_id].
    apply map_ext_in. intros r Hr. destruct (Hother r (H' r Hr)) as [Hl Hno]. apply (sweep_id l r Hno Hl). }
  rewrite !Hid by auto. reflexivity.
Qed.

Lemma round_ok_sound pre body l post : round_ok pre body l post = true ->
  Forall2 (entry_rel (beh_eq (cfg_of_pops (pre ++ (body ++ [PLabel l]) :: post))
                             (cfg_of_pops (pre ++ strip_sweep l body None false :: post))))
          (pop_entries (pre ++ (body ++ [PLabel l]) :: post)) (pop_entries (pre ++ strip_sweep l body None false :: post)).
Proof.
  unfold round_ok. set (rs := pre ++ (body ++ [PLabel l]) :: post). intro H.
  apply andb_prop in H as [H Hbody]. apply andb_prop in H as [H Hcyc]. apply andb_prop in H as [H Hplain].
  apply andb_prop in H as [H Hfor]. apply andb_prop in H as [H Hdef]. apply andb_prop in H as [H Hlab].
  apply andb_prop in H as [Hshape Hwf]. apply nodup_nat_sound in Hlab.
  pose proof (fun r => forallb_In _ _ r Hshape) as Hshape'. pose proof (fun r => forallb_In _ _ r Hwf) as Hwf'.
  assert (Hother : forall r, In r pre \/ In r post -> ~ In (PLabel l) r /\ forallb (fun x => negb (jumps_to l x)) r = true).
  { intros r Hr. split.
    - (* labels are defined once, and [l] is defined at the end of the routine in the middle *)
      intro Hl. unfold rs in Hlab. rewrite concat_app in Hlab. cbn [concat] in Hlab.
      rewrite <- !app_assoc, (app_assoc (concat pre)), !labels_of_app in Hlab.
      apply NoDup_remove_2 in Hlab. apply Hlab. rewrite <- !labels_of_app. apply labels_of_In.
      apply in_or_app. destruct Hr as [Hr|Hr]; [left; apply in_or_app; left | right]; apply in_concat; eauto.
    - apply forallb_forall. intros x Hx.
      apply (forallb_In _ _ _ Hfor). apply in_or_app. destruct Hr; [left | right]; apply in_concat; eauto. }
  assert (Hne : forall r, In r rs -> r <> [PLabel l]).
  { intros r Hr E. apply in_app_or in Hr. destruct Hr as [Hr|[<-|Hr]].
    - apply (proj1 (Hother r (or_introl Hr))). rewrite E. left. reflexivity.
    - destruct body as [|y [|z body']]; [discriminate Hbody | discriminate E | discriminate E].
    - apply (proj1 (Hother r (or_intror Hr))). rewrite E. left. reflexivity. }
  assert (Hpl : forall o, In (PJump o l) (concat rs) -> is_jump (code o) = true).
  { intros o Hin. apply in_concat in Hin. destruct Hin as (r & Hr & Hin). apply in_app_or in Hr.
    assert (Hr' : body ++ [PLabel l] = r \/ (In r pre \/ In r post)) by (destruct Hr as [|[|]]; auto). destruct Hr' as [<-|Hr'].
    - apply in_app_or in Hin. destruct Hin as [Hin|[Hin|[]]]; [|discriminate].
      apply (forallb_In _ _ _ Hplain) in Hin. cbn [plain_if_to] in Hin. rewrite Nat.eqb_refl in Hin. exact Hin.
    - apply (forallb_In _ _ _ (proj2 (Hother r Hr'))) in Hin. cbn [jumps_to] in Hin. rewrite Nat.eqb_refl in Hin. discriminate Hin. }
  assert (Hend : exists body0, In (body0 ++ [PLabel l]) rs) by (exists body; apply in_or_app; right; left; reflexivity).
  rewrite <- (round_tr_map pre body l post Hother).
  apply (entries_mono _ _ _ _ (round_preserves rs l Hshape' Hwf' Hlab (jumps_defined_sound _ Hdef) Hpl Hend
                                 (no_cycle_terminates _ Hcyc))).
  apply (round_entries rs l Hshape' Hne).
Qed.

(* two programs are the same, or all their routines behave equally (the first case is there because [beh_eq] is not
   reflexive on graphs with stuck nodes, and a program strip_last_label does not change is not asked to be free of them) *)
Definition prog_rel (P Q : list (list pop)) : Prop :=
  P = Q \/ Forall2 (entry_rel (beh_eq (cfg_of_pops P) (cfg_of_pops Q))) (pop_entries P) (pop_entries Q).

Lemma prog_rel_trans P Q R : prog_rel P Q -> prog_rel Q R -> prog_rel P R.
Proof.
  intros [->|H1] [->|H2]; [left; reflexivity | right; exact H2 | right; exact H1|].
  right. apply (entries_trans _ (cfg_of_pops Q) _ _ (pop_entries Q) H1 _ H2).
Qed.

Fixpoint routine_rounds_ok (fuel : nat) (pre : list (list pop)) (r : list pop) (post : list (list pop)) : bool :=
  match fuel with
  | O => true
  | S f =>
      match last_label r with
      | None => true
      | Some l => round_ok pre (removelast r) l post && routine_rounds_ok f pre (strip_sweep l (removelast r) None false) post
      end
  end.

Lemma routine_rounds fuel : forall pre r post, routine_rounds_ok fuel pre r post = true ->
  prog_rel (pre ++ r :: post) (pre ++ strip_routine fuel r :: post).
Proof.
  induction fuel as [|f IH]; intros pre r post H; [left; reflexivity|].
  cbn [routine_rounds_ok strip_routine] in *. destruct (last_label r) as [l|] eqn:E; [|left; reflexivity].
  apply andb_prop in H as [H1 H2].
  apply (prog_rel_trans _ (pre ++ strip_sweep l (removelast r) None false :: post)).
  - right. pose proof (round_ok_sound pre (removelast r) l post H1) as HS. rewrite <- (last_label_split r l E) in HS. exact HS.
  - apply IH. exact H2.
Qed.

Fixpoint all_rounds_ok (done todo : list (list pop)) : bool :=
  match todo with
  | [] => true
  | r :: rest => routine_rounds_ok (length r) done r rest && all_rounds_ok (done ++ [strip_routine (length r) r]) rest
  end.

Lemma all_rounds todo : forall done, all_rounds_ok done todo = true -> prog_rel (done ++ todo) (done ++ strip todo).
Proof.
  induction todo as [|r rest IH]; intros done H; [left; reflexivity|].
  cbn [all_rounds_ok] in H. apply andb_prop in H as [H1 H2].
  unfold strip. cbn [map]. fold (strip rest).
  apply (prog_rel_trans _ (done ++ strip_routine (length r) r :: rest)).
  - apply routine_rounds. exact H1.
  - specialize (IH (done ++ [strip_routine (length r) r]) H2). rewrite <- !app_assoc in IH. exact IH.
Qed.

Definition strip_ok (rs : list (list pop)) : bool := all_rounds_ok [] rs.

(* strip_last_label keeps the behaviour of every routine (or changes nothing) *)
Theorem strip_preserves rs : strip_ok rs = true -> prog_rel rs (strip rs).
Proof. intro H. apply (all_rounds rs [] H). Qed.

(* the whole back end: strip_last_label, LabelFinalizer, OpsLabelJumpToRemover *)
Theorem back_end_preserves rs fin t P' :
  finalize (strip rs) = (fin, t) -> remove_all t fin = Ok P' ->
  strip_ok rs = true -> finalize_ok (strip rs) = true -> backend_ok fin P' = true ->
  Forall2 (entry_rel (beh_eq (cfg_of_pops rs) (cfg_of_ssb P'))) (pop_entries rs) (ssb_entries P').
Proof.
  intros Hfin Hrem H1 H2 H3.
  pose proof (finalize_and_remove_preserve (strip rs) fin t P' Hfin Hrem H2 H3) as HF.
  destruct (strip_preserves rs H1) as [E|HS].
  - rewrite <- E in HF. exact HF.
  - apply (entries_trans _ (cfg_of_pops (strip rs)) _ _ (pop_entries (strip rs)) HS _ HF).
Qed.

(* Erasing redundant jumps keeps the meaning of the pseudo code.
   Generic part: [rm x rest] decides, from an element and the rest of its routine, whether the element is
   erased; every erased element is a plain jump to a label that follows it in the same routine with only
   labels and erased elements in between ([region]).  LabelFinalizer's jump removal is an instance. *)
From ES Require Import Base Ssb.Cfg Ssb.Machine Ssb.Silent Comp.Passes Comp.PopSem Comp.Flat Comp.RemoveSem
  Comp.TableRight Comp.ActSem.

(* the rest of the routine after every element, flat *)
Fixpoint rests_r (r : list pop) : list (list pop) :=
  match r with [] => [] | _ :: rest => rest :: rests_r rest end.
Definition rests (rs : list (list pop)) : list (list pop) := flat_map rests_r rs.

(* shape: no label and no label jump directly follows a context op; no routine ends in a label *)
Fixpoint shape2 (r : list pop) : bool :=
  match r with
  | [] => true
  | x :: rest =>
      match rest with
      | [] => negb (is_label x)
      | y :: _ => negb (pop_isctx x && (is_label y || match y with PJump _ _ => true | _ => false end)) && shape2 rest
      end
  end.

Lemma shape2_cons x r : shape2 (x :: r) = true ->
  shape2 r = true /\ match r with [] | POp _ :: _ => True | _ => pop_isctx x = false end.
Proof.
  cbn [shape2]. destruct r as [|y r]; [auto|]. intro H. apply andb_prop in H as [H1 H2]. split; [exact H2|].
  apply negb_true_iff in H1. destruct y; trivial; cbn [is_label orb] in H1; rewrite andb_true_r in H1; exact H1.
Qed.

Lemma rests_r_length r : length (rests_r r) = length r.
Proof. induction r as [|x r IH]; cbn [rests_r length]; [reflexivity | rewrite IH; reflexivity]. Qed.

Lemma rests_length rs : length (rests rs) = length (concat rs).
Proof. apply flat_map_length_concat, rests_r_length. Qed.

Definition with_rests (r : list pop) : list ((pop * bool * bool) * list pop) := combine (annotate_r pop_isctx r false) (rests_r r).

Lemma with_rests_length r : length (with_rests r) = length r.
Proof. unfold with_rests. rewrite combine_length, annotate_r_length, rests_r_length. apply Nat.min_id. Qed.

Lemma with_rests_flat rs : combine (annotate pop_isctx rs) (rests rs) = flat_map with_rests rs.
Proof. apply flat_map_combine. intro r. rewrite annotate_r_length, rests_r_length. reflexivity. Qed.

(* the entry after one whose rest is not empty *)
Lemma rests_r_next r : forall pc a x last pc' y rest',
  nth_error (combine (annotate_r pop_isctx r pc) (rests_r r)) a = Some ((x, last, pc'), y :: rest') ->
  exists last', nth_error (combine (annotate_r pop_isctx r pc) (rests_r r)) (S a) = Some ((y, last', pop_isctx x), rest').
Proof.
  induction r as [|z r IH]; intros pc a x last pc' y rest' H; [destruct a; discriminate|].
  cbn [annotate_r rests_r combine] in *. destruct a as [|a]; cbn [nth_error] in *.
  - injection H as -> _ _ ->. cbn [annotate_r rests_r combine nth_error]. eexists. reflexivity.
  - apply (IH _ _ _ _ _ _ _ H).
Qed.

Lemma rests_next rs a x last pc y rest' :
  nth_error (combine (annotate pop_isctx rs) (rests rs)) a = Some ((x, last, pc), y :: rest') ->
  exists last', nth_error (combine (annotate pop_isctx rs) (rests rs)) (S a) = Some ((y, last', pop_isctx x), rest').
Proof.
  rewrite with_rests_flat. intro H. destruct (flat_map_nth _ _ _ _ H) as (r & j & _ & Hj & Hn).
  destruct (rests_r_next r false j _ _ _ _ _ Hj) as [last' Hc]. exists last'. refine (eq_trans (Hn _) Hc).
  apply nth_error_Some. unfold with_rests. congruence.
Qed.

Lemma shape2_shape_ok r : shape2 r = true -> shape_ok r = true.
Proof.
  induction r as [|x r IH]; [reflexivity|]. cbn [shape2 shape_ok]. destruct r as [|y r']; [trivial|].
  intro H. apply andb_prop in H as [H1 H2]. rewrite (IH H2).
  destruct (pop_isctx x), (is_label y); trivial.
Qed.

Section Erase.
  Variable rm : pop -> list pop -> bool.

  Inductive region (l : nat) : list pop -> Prop :=
  | rg_here rest : region l (PLabel l :: rest)
  | rg_label l' rest : region l rest -> region l (PLabel l' :: rest)
  | rg_removed x rest : rm x rest = true -> region l rest -> region l (x :: rest).

  Hypothesis rm_spec : forall x rest, rm x rest = true ->
    exists o l, x = PJump o l /\ is_jump (code o) = true /\ region l rest.

  Fixpoint kfilter (r : list pop) : list pop :=
    match r with
    | [] => []
    | x :: rest => if rm x rest then kfilter rest else x :: kfilter rest
    end.

  Lemma rm_label l rest : rm (PLabel l) rest = false.
  Proof. destruct (rm (PLabel l) rest) eqn:E; [|reflexivity]. destruct (rm_spec _ _ E) as (o & l' & H & _). discriminate. Qed.
  Lemma region_nonempty l rest : region l rest -> rest <> [].
  Proof. destruct 1; discriminate. Qed.

  Lemma region_kfilter l rest : region l rest -> kfilter rest <> [].
  Proof.
    induction 1 as [rest|l' rest H IH|x rest Hx H IH]; cbn [kfilter].
    - rewrite rm_label. discriminate.
    - rewrite rm_label. discriminate.
    - rewrite Hx. exact IH.
  Qed.

  Lemma kfilter_nonempty r : r <> [] -> kfilter r <> [].
  Proof.
    destruct r as [|x rest]; [contradiction|]. intros _. cbn [kfilter]. destruct (rm x rest) eqn:E; [|discriminate].
    destruct (rm_spec _ _ E) as (o & l & _ & _ & Hr). apply (region_kfilter l rest Hr).
  Qed.

  Definition keep3 (e : (pop * bool * bool) * list pop) : option (pop * bool * bool) :=
    let '((x, last, pc), rest) := e in if rm x rest then None else Some (x, last, pc).

  (* the condition on [pc] is that of [annotate_r_omap] *)
  Lemma annotate_r_kfilter r : forall pc, shape2 r = true ->
    (match r with x :: rest => rm x rest = true -> pc = false | [] => True end) ->
    annotate_r pop_isctx (kfilter r) pc = omap keep3 (combine (annotate_r pop_isctx r pc) (rests_r r)).
  Proof.
    induction r as [|x r IH]; intros pc Hs Hpc; [reflexivity|].
    destruct (shape2_cons _ _ Hs) as [Hsr Hxy].
    assert (Hnext : match r with y :: rest' => rm y rest' = true -> pop_isctx x = false | [] => True end).
    { destruct r as [|y r']; [trivial|]. intro Hy. destruct (rm_spec _ _ Hy) as (o & l & -> & _). exact Hxy. }
    cbn [kfilter annotate_r rests_r combine]. rewrite omap_cons. cbn [keep3].
    destruct (rm x r) eqn:E.
    - (* erased: a jump, no context op, and not directly behind one *)
      rewrite (Hpc eq_refl). destruct (rm_spec _ _ E) as (o & l & -> & _ & _).
      apply (IH _ Hsr). exact Hnext.
    - (* kept: it is the last of its routine exactly if it was, as what follows it is not all erased *)
      cbn [annotate_r]. rewrite (IH _ Hsr Hnext). destruct r as [|y r']; [reflexivity|].
      pose proof (kfilter_nonempty (y :: r') ltac:(discriminate)). destruct (kfilter (y :: r')); [contradiction | reflexivity].
  Qed.

  Lemma annotate_kfilter rs : (forall r, In r rs -> shape2 r = true) ->
    annotate pop_isctx (map kfilter rs) = omap keep3 (combine (annotate pop_isctx rs) (rests rs)).
  Proof.
    intro H. rewrite with_rests_flat. apply annotate_map_omap. intros r Hr.
    apply annotate_r_kfilter; [apply H, Hr | destruct r; trivial].
  Qed.

  Section WithProgram.
    Variable rs : list (list pop).
    Hypothesis Hshape : forall r, In r rs -> shape2 r = true.
    Hypothesis Hlab : NoDup (labels_of (concat rs)).
    Hypothesis Hdef : forall o l, In (PJump o l) (concat rs) -> find_label l (concat rs) 0 <> None.

    Let all1 := concat rs.
    Let N1 := length all1.
    Let L1 := annotate pop_isctx rs.
    Let C1 := combine L1 (rests rs).
    Let rs2 := map kfilter rs.
    Let all2 := concat rs2.
    Let N2 := length all2.
    Let L2 := annotate pop_isctx rs2.
    Let g1 := cfg_of_pops rs.
    Let g2 := cfg_of_pops rs2.
    Let ph := phi keep3 C1.

    Lemma erase_annotate : L2 = omap keep3 C1.  Proof. apply annotate_kfilter. exact Hshape. Qed.
    Lemma erase_len : length C1 = N1.  Proof. apply (pf_len (rests_length rs)). Qed.
    Lemma erase_kept_len : length (omap keep3 C1) = N2.  Proof. apply (pf_len2 erase_annotate). Qed.

    Definition erase_g1 : cfg := flat_cfg (pop_node all1) N1 (map fst C1).
    Definition erase_g2 : cfg := flat_cfg (pop_node all2) N2 (omap keep3 C1).

    Lemma erase_find l i : find_label l all1 0 = Some i -> find_label l all2 0 = Some (ph i).
    Proof.
      intro H. apply (pf_find (rests_length rs) erase_annotate l i); [|exact H|].
      - intros [[[x last] pc] rest] e _ He. unfold keep3 in He. destruct (rm x rest); [discriminate|]. injection He as <-. reflexivity.
      - destruct (find_label_lt _ _ _ _ H) as [_ Hn]. rewrite Nat.sub_0_r in Hn. intros [[[x last] pc] rest] Hc.
        injection (eq_trans (eq_sym (pf_nth_all (rests_length rs) Hc)) Hn) as ->. unfold keep3. rewrite rm_label. discriminate.
    Qed.

    Lemma erase_label_not_last a l last pc rest : nth_error C1 a = Some ((PLabel l, last, pc), rest) -> last = false.
    Proof.
      intro H. apply nth_error_In, in_combine_l, in_flat_map in H. destruct H as (r & Hr & H).
      apply (label_not_last r false _ _ _ (shape2_shape_ok r (Hshape r Hr)) H eq_refl).
    Qed.

    Definition ERel (a b : nat) : Prop := (a = S N1 /\ b = S N2) \/ (a <= N1 /\ b = ph a).

    (* from an element whose rest holds a region for l: l is found behind it, and the other graph walks there silently *)
    Lemma region_run l rest : region l rest -> forall a x last pc,
      nth_error C1 a = Some ((x, last, pc), rest) ->
      exists k, find_label l all1 0 = Some (S a + k) /\ silently erase_g2 (ph (S a)) (ph (S a + k)).
    Proof.
      induction 1 as [rest'|l' rest' Hr IH|y rest' Hy Hr IH]; intros a x last pc Hn;
        pose proof (rests_next rs _ _ _ _ _ _ Hn) as [last' Hn'].
      - exists 0. rewrite Nat.add_0_r. split; [|apply silently_refl].
        apply (find_label_unique l all1 0 (S a) Hlab (pf_nth_all (rests_length rs) Hn')).
      - destruct (IH _ _ _ _ Hn') as (k & Hf & Hc). rewrite (erase_label_not_last _ _ _ _ _ Hn') in Hn'.
        assert (Ef : keep3 ((PLabel l', false, pop_isctx x), rest') = Some (PLabel l', false, pop_isctx x))
          by (unfold keep3; rewrite rm_label; reflexivity).
        exists (S k). rewrite <- Nat.add_succ_comm. split; [exact Hf|].
        apply (silently_step _ _ (S (ph (S a)))); [apply (filt_g2_nth (pop_node all2) keep3 N2 Hn' Ef)|].
        unfold ph. rewrite <- (phi_keep keep3 C1 _ _ _ Hn' Ef). exact Hc.
      - destruct (IH _ _ _ _ Hn') as (k & Hf & Hc). exists (S k). rewrite <- Nat.add_succ_comm. split; [exact Hf|].
        unfold ph. rewrite <- (phi_skip keep3 C1 _ _ Hn'); [exact Hc | unfold keep3; rewrite Hy; reflexivity].
    Qed.

    Lemma erase_node_sim a c : nth_error C1 a = Some c -> node_sim ERel erase_g1 erase_g2 a (ph a).
    Proof.
      intro E. destruct c as [[[x last] pc] rest]. destruct (rm x rest) eqn:Er.
      - (* erased: a plain jump; the other graph walks through the labels to the same place *)
        destruct (rm_spec _ _ Er) as (o & l & -> & Hj & Hreg). destruct (region_run l rest Hreg _ _ _ _ E) as (k & Fl & Hch).
        apply (sim_silent (S a + k) E); [cbn [pop_node node_of_pop fst]; fold all1; rewrite Fl, Hj; reflexivity|].
        exists (ph (S a + k)). split.
        + unfold ph. rewrite <- (phi_skip keep3 C1 _ _ E); [exact Hch | unfold keep3; rewrite Er; reflexivity].
        + right. split; [apply (find_label_le _ _ _ Fl) | reflexivity].
      - assert (Ef : keep3 ((x, last, pc), rest) = Some (x, last, pc)) by (unfold keep3; rewrite Er; reflexivity).
        apply (sim_kept E Ef). cbn [pop_node fst]. apply node_of_pop_rel.
        + left. split; reflexivity.
        + intros _. apply (filt_succ erase_len erase_kept_len E Ef).
        + intros o l ->. pose proof (Hdef o l (nth_error_In _ _ (pf_nth_all (rests_length rs) E))) as Hd. fold all1 in Hd.
          destruct (find_label l all1 0) as [i|] eqn:Fl; [|destruct (Hd eq_refl)].
          exists i, (ph i). split; [reflexivity|]. split; [apply (erase_find _ _ Fl)|].
          right. split; [apply (find_label_le _ _ _ Fl) | reflexivity].
    Qed.

    Theorem erase_preserves_behaviour :
      (forall a, a <= S N1 -> exists o, reaches g1 a o) ->
      forall a b, ERel a b -> beh_eq g1 g2 a b.
    Proof.
      unfold g1, g2. rewrite (pf_g1 (rests_length rs)), (pf_g2 erase_annotate).
      apply (filtered_beh_eq erase_len erase_kept_len erase_node_sim).
    Qed.
  End WithProgram.
End Erase.

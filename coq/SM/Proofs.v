(* C14: round trip through the serialised form; offset rewriting. *)
From ES Require Import Base Text.Dec SM.Model.

Lemma mapM_map {A B} (g : A -> B) (f : B -> option A) (l : list A) :
  (forall x, f (g x) = Some x) -> mapM f (map g l) = Some l.
Proof. intro H. induction l as [|x r IH]; cbn [map mapM]; [reflexivity|]. rewrite H, IH. reflexivity. Qed.

Lemma d_otext_j o : d_otext (j_otext o) = Some o.
Proof. destruct o; reflexivity. Qed.

Lemma de_ser_posmark p : de_posmark (ser_posmark p) = Some p.
Proof. destruct p; reflexivity. Qed.

Lemma de_ser_mapping m : de_mapping (ser_mapping m) = Some m.
Proof. destruct m; reflexivity. Qed.

Lemma de_ser_pval v : de_pval (ser_pval v) = Some v.
Proof. destruct v; reflexivity. Qed.

Lemma de_ser_called c : de_called (ser_called c) = Some c.
Proof. destruct c as [[[f l] k]|]; cbn [ser_called de_called]; [rewrite d_otext_j|]; reflexivity. Qed.

Lemma de_ser_params ps :
  de_params (JObj (map (fun kv => (fst kv, ser_pval (snd kv))) ps)) = Some ps.
Proof.
  cbn [de_params]. apply (mapM_map (fun kv : string * pval => (fst kv, ser_pval (snd kv)))).
  intros [k v]; cbn [fst snd]. rewrite de_ser_pval. reflexivity.
Qed.

Lemma de_ser_mmapping m : de_mmapping (ser_mmapping m) = Some m.
Proof.
  destruct m as [f mn l c ci r ps]. unfold ser_mmapping, de_mmapping.
  cbn [mm_file mm_macro mm_line mm_col mm_called mm_ret mm_params].
  rewrite d_otext_j, de_ser_called, de_ser_params. destruct r; reflexivity.
Qed.

Lemma de_ser_keyed {A} (ser : A -> json) (de : json -> option A) l :
  (forall x, de (ser x) = Some x) -> de_keyed de (ser_keyed ser l) = Some l.
Proof.
  intro H. unfold de_keyed, ser_keyed.
  apply (mapM_map (fun kv : Z * A => (print_Z (fst kv), ser (snd kv)))).
  intros [k v]; cbn [fst snd]. rewrite parse_print_Z, H. reflexivity.
Qed.

Lemma de_ser_mmark y :
  de_mmark (JArr [j_otext (fst (fst y)); JStr (snd (fst y)); ser_posmark (snd y)]) = Some y.
Proof. destruct y as [[f mn] p]. unfold de_mmark. cbn [fst snd]. rewrite d_otext_j, de_ser_posmark. reflexivity. Qed.

(* reading back what was written gives the same map: op entries, macro entries (file, macro, position,
   call site as a tuple, return address, parameter mapping) and position marks *)
Theorem deserialize_serialize m : deserialize (serialize m) = Some m.
Proof.
  destruct m as [a b c d]. unfold serialize, deserialize. cbn [s_map s_marks s_mmap s_mmarks].
  rewrite (de_ser_keyed ser_mapping de_mapping a de_ser_mapping).
  rewrite (mapM_map ser_posmark de_posmark b de_ser_posmark).
  rewrite (de_ser_keyed ser_mmapping de_mmapping c de_ser_mmapping).
  rewrite (mapM_map _ de_mmark d de_ser_mmark). reflexivity.
Qed.

(* serialising again gives the same text *)
Corollary reserialize m m' : deserialize (serialize m) = Some m' -> serialize m' = serialize m.
Proof. rewrite deserialize_serialize. intros [= <-]. reflexivity. Qed.

Lemma rewrite_keys_In {A} f (l : list (Z * A)) k' v :
  In (k', v) (rewrite_keys f l) <-> exists k, In (k, v) l /\ lookupZ k f = Some k'.
Proof.
  unfold rewrite_keys. split.
  - intro H. apply in_flat_map in H as [[k v0] [Hin H]]. cbn [fst snd] in H. destruct (lookupZ k f) as [n|] eqn:E; [|destruct H].
    destruct H as [H|[]]. injection H as <- <-. exists k. split; assumption.
  - intros [k [Hin E]]. apply in_flat_map. exists (k, v). split; [exact Hin|]. cbn [fst snd]. rewrite E. left; reflexivity.
Qed.

Lemma rewrite_keys_nil {A} (l : list (Z * A)) : rewrite_keys [] l = [].
Proof. induction l as [|kv l IH]; [reflexivity | exact IH]. Qed.

Lemma rewrite_offsets_eq f m : rewrite_offsets f m =
  mkSM (rewrite_keys f (s_map m)) (s_marks m)
       (map (fun kv => (fst kv, rewrite_mm f (snd kv))) (rewrite_keys f (s_mmap m))) (s_mmarks m).
Proof. destruct f; [|reflexivity]. cbn [rewrite_offsets]. rewrite !rewrite_keys_nil. reflexivity. Qed.

(* every entry moves to the new offset of the same op; only entries whose op is absent from the
   mapping disappear; nothing else appears *)
Lemma rewrite_op_entries_any f m k' v :
  In (k', v) (s_map (rewrite_offsets f m)) <-> exists k, In (k, v) (s_map m) /\ lookupZ k f = Some k'.
Proof. rewrite rewrite_offsets_eq. apply rewrite_keys_In. Qed.

Lemma rewrite_macro_entries_any f m k' v' :
  In (k', v') (s_mmap (rewrite_offsets f m)) <->
  exists k v, In (k, v) (s_mmap m) /\ lookupZ k f = Some k' /\ v' = rewrite_mm f v.
Proof.
  rewrite rewrite_offsets_eq. cbn [s_mmap]. split.
  - intro H. apply in_map_iff in H as [[k0 v0] [[= <- <-] Hin]]. apply rewrite_keys_In in Hin. destruct Hin as [k [Hin Hl]]. exists k, v0. auto.
  - intros (k & v & Hin & Hl & ->). apply in_map_iff. exists (k', v). split; [reflexivity|]. apply rewrite_keys_In. exists k. auto.
Qed.

(* C14 states the two facts for a non-empty mapping, as the code branches; by [rewrite_offsets_eq] they hold for any *)
Theorem rewrite_op_entries f m k' v : f <> [] ->
  (In (k', v) (s_map (rewrite_offsets f m)) <-> exists k, In (k, v) (s_map m) /\ lookupZ k f = Some k').
Proof. intros _. apply rewrite_op_entries_any. Qed.

Theorem rewrite_macro_entries f m k' v' : f <> [] ->
  (In (k', v') (s_mmap (rewrite_offsets f m)) <->
   exists k v, In (k, v) (s_mmap m) /\ lookupZ k f = Some k' /\ v' = rewrite_mm f v).
Proof. intros _. apply rewrite_macro_entries_any. Qed.

Theorem rewrite_keeps_marks f m :
  s_marks (rewrite_offsets f m) = s_marks m /\ s_mmarks (rewrite_offsets f m) = s_mmarks m.
Proof. destruct f; split; reflexivity. Qed.

(* macro entries keep everything but the return address *)
Theorem rewrite_mm_fields f v :
  mm_file (rewrite_mm f v) = mm_file v /\ mm_macro (rewrite_mm f v) = mm_macro v /\
  mm_line (rewrite_mm f v) = mm_line v /\ mm_col (rewrite_mm f v) = mm_col v /\
  mm_called (rewrite_mm f v) = mm_called v /\ mm_params (rewrite_mm f v) = mm_params v.
Proof. repeat split. Qed.

(* the return address goes to the new offset of its op ... *)
Theorem rewrite_ret_present f a n : lookupZ a f = Some n -> rewrite_ret f (Some a) = Some n.
Proof. intro H. unfold rewrite_ret. destruct (Z.to_nat (max_key f - a)); cbn [find_next]; rewrite H; reflexivity. Qed.

Lemma find_next_spec f : forall fuel a,
  match find_next f a fuel with
  | Some n => exists b, (a <= b <= a + Z.of_nat fuel)%Z /\ lookupZ b f = Some n /\
                        forall c, (a <= c < b)%Z -> lookupZ c f = None
  | None => forall c, (a <= c <= a + Z.of_nat fuel)%Z -> lookupZ c f = None
  end.
Proof.
  induction fuel as [|k IH]; intro a; cbn [find_next];
    (destruct (lookupZ a f) as [n|] eqn:E; [exists a; repeat split; [lia | lia | exact E | lia]|]).
  - intros c Hc. replace c with a by lia. exact E.
  - specialize (IH (a + 1)%Z). destruct (find_next f (a + 1) k) as [n|].
    + destruct IH as (b & Hb & Hl & Hn). exists b. repeat split; [lia | lia | exact Hl |].
      intros c Hc. destruct (Z.eq_dec c a) as [->|]; [exact E | apply Hn; lia].
    + intros c Hc. destruct (Z.eq_dec c a) as [->|]; [exact E | apply IH; lia].
Qed.

(* ... or, when that op was dropped, to the new offset of the next surviving op (in old numbering) *)
Theorem rewrite_ret_spec f a :
  match rewrite_ret f (Some a) with
  | Some r' =>
      (exists j, lookupZ (a + Z.of_nat j) f = Some r' /\ forall i, (i < j)%nat -> lookupZ (a + Z.of_nat i) f = None)
      \/ (r' = a /\ forall b, (a <= b <= max_key f)%Z -> lookupZ b f = None)
  | None => False
  end.
Proof.
  unfold rewrite_ret. pose proof (find_next_spec f (Z.to_nat (max_key f - a)) a) as H.
  destruct (find_next f a (Z.to_nat (max_key f - a))) as [n|].
  - left. destruct H as (b & Hb & Hl & Hn). exists (Z.to_nat (b - a)).
    replace (a + Z.of_nat (Z.to_nat (b - a)))%Z with b by lia. split; [exact Hl | intros i Hi; apply Hn; lia].
  - right. split; [reflexivity|]. intros b Hb. apply H. lia.
Qed.

(* so the second alternative of [rewrite_ret_spec] says: no key from [a] on at all *)
Lemma lookupZ_max f k n : lookupZ k f = Some n -> (k <= max_key f)%Z.
Proof.
  induction f as [|[a b] r IH]; simpl; [discriminate|]. destruct (Z.eqb_spec a k) as [->|_].
  - lia.
  - intro H. specialize (IH H). lia.
Qed.

(* non-vacuity: dropping ops 2 and 3, non-monotone mapping *)
Example rewrite_example :
  let f := [(1, 10); (4, 7); (5, 3)]%Z in
  let mm r := mkMM None [109%N] 0 0 None r [] in
  let m := mkSM [(1, mkMap 0 0); (2, mkMap 1 0); (4, mkMap 2 4)]%Z [] [(5, mm (Some 2)); (3, mm (Some 6))]%Z [] in
  rewrite_offsets f m =
  mkSM [(10, mkMap 0 0); (7, mkMap 2 4)]%Z [] [(3, mm (Some 7))]%Z [].
Proof. vm_compute. reflexivity. Qed.

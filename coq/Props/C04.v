(* C04 - parameter values survive print -> parse; literal spellings parse to their values.  Proved: integers (printed
   form and every spelling of the token rule INTEGER), single-line and multi-line string literals, fixed-point values,
   the arguments of position marks.  Constants, the printing contexts and the lexer rule for multi-line literals are
   decided on the real code (harness/checks/c04.py). *)
From ES Require Import Base Text.Dec Text.Str Text.StrProofs Text.MStr Text.MStrProofs Text.MLex
  Text.MLexProofs Text.Num Text.NumProofs.

Theorem C04_int_roundtrip : forall z, parse_Z (print_Z z) = Some z.
Proof. exact parse_print_Z. Qed.
Print Assumptions C04_int_roundtrip.

(* a string that is single-line exact and holds no line feed: the printed literal (either quote style) is one
   STRING_LITERAL for the lexer, and reading it gives the string back *)
Theorem C04_single_line_string_roundtrip : forall q s,
  (q = DQ \/ q = SQ) -> single_exact s = true -> mem LF s = false ->
  lex_body q (escape_quotes q s) = true /\ read_single (print_single q s) = s.
Proof.
  intros q s Hq He Hl. split; [apply single_lexes; assumption|].
  destruct Hq; subst; [apply single_roundtrip_dq | apply single_roundtrip_sq]; exact He.
Qed.
Print Assumptions C04_single_line_string_roundtrip.

(* a string that is multi-line exact (no line separator other than LF, some line does not start with a blank): the
   multi-line literal printed at any indentation depth, with either triple quote, is read back as the string by the
   reader's dedent rules (str.splitlines semantics included). *)
Theorem C04_multi_line_string_roundtrip : forall q indent s,
  multi_exact s = true -> read_multi (print_multi q indent s) = s.
Proof. exact multi_roundtrip. Qed.
Print Assumptions C04_multi_line_string_roundtrip.

(* ... and the printed literal is exactly one token for the lexer rule (the non-greedy body ends at the first place where
   the delimiter follows), whatever text follows it, provided the delimiter does not occur in the string - the test
   _multiline_literal_is_exact makes before this form is chosen *)
Theorem C04_multi_line_literal_is_one_token : forall q indent s rest,
  (q = DQ \/ q = SQ) -> occurs3 q s = false ->
  lex_multi q (print_multi q indent s ++ rest) = Some (print_multi q indent s, rest).
Proof.
  intros q indent s rest Hq Ho. apply printed_literal_is_one_token; [| | exact Ho]; destruct Hq; subst; discriminate.
Qed.
Print Assumptions C04_multi_line_literal_is_one_token.

Example C04_multi_example :
  let s := s2t "first"%string ++ [LF] ++ s2t "  indented"%string ++ [LF; LF] ++ s2t "last "%string ++ [LF] in
  multi_exact s = true /\ read_multi (print_multi SQ 2 s) = s /\ length (split LF s) = 5.
Proof. vm_compute. repeat split; reflexivity. Qed.

(* non-vacuity: a string with both quotes, a backslash before an ordinary letter, blanks at both ends *)
Example C04_string_example :
  let s := s2t " it's \a ""q"" "%string in
  single_exact s = true /\ mem LF s = false /\ read_single (print_single SQ s) = s.
Proof. vm_compute. repeat split; reflexivity. Qed.

(* the condition is needed: a backslash before the letter n is read as a line feed *)
Example C04_inexact_string :
  let s := [BS; LN] in single_exact s = false /\ read_single (print_single DQ s) <> s.
Proof. vm_compute. split; [reflexivity | discriminate]. Qed.

(* integers as the compiler reads them (token rule INTEGER, int(tok, 0)): the printed form str(z) and every other
   spelling - base prefix in either case, leading zeros after it, digits in either case, a minus sign, the zeros of the
   decimal rule - read as the integer they spell *)
Theorem C04_integer_spellings : forall s z, spells s z -> read_int s = Some z.
Proof. exact spellings_read. Qed.
Print Assumptions C04_integer_spellings.

Theorem C04_printed_integer_reads_back : forall z, read_int (spell_dec z) = Some z.
Proof. exact read_int_spell_dec. Qed.
Print Assumptions C04_printed_integer_reads_back.

(* fixed-point parameters: whatever value the reader produces from a DECIMAL token is printed as a DECIMAL token that
   reads as the same value *)
Theorem C04_fixed_point_roundtrip : forall tok, is_decimal_token tok = true ->
  exists v, read_fixed tok = Some v /\ is_decimal_token v = true /\ read_fixed v = Some v.
Proof. exact fixed_roundtrip. Qed.
Print Assumptions C04_fixed_point_roundtrip.

(* position-mark arguments: tile number and half-tile offset survive for the offsets 0 and 2; what is read back for any
   other offset is stated exactly (the recorded finding: offsets other than 0 and 2 have no literal form) *)
Theorem C04_position_mark_argument_roundtrip : forall rel off, off = 0%N \/ off = 2%N ->
  read_pos_arg (print_pos_arg rel off) = Some (rel, off).
Proof. exact pos_arg_roundtrip. Qed.
Print Assumptions C04_position_mark_argument_roundtrip.

Theorem C04_position_mark_argument_read_back : forall rel off,
  read_pos_arg (print_pos_arg rel off) = Some (rel, if (1 <? off)%N then 2%N else 0%N).
Proof. exact read_print_pos_arg. Qed.

Theorem C04_position_mark_other_offsets_refuted :
  exists rel off, read_pos_arg (print_pos_arg rel off) <> Some (rel, off).
Proof. exact pos_arg_other_offsets_refuted. Qed.

Example C04_number_examples :
  read_int (s2t "-0X00fF"%string) = Some (-255)%Z /\ spells (s2t "-0X00FF"%string) (-255)%Z /\
  read_int (s2t "007"%string) = None /\
  read_fixed (s2t "-007.50"%string) = Some (s2t "-7.50"%string) /\ read_fixed (s2t "-.5"%string) = Some (s2t "-0.5"%string) /\
  print_pos_arg (-4) 2 = s2t "-4.5"%string /\ read_pos_arg (s2t "-4.5"%string) = Some ((-4)%Z, 2%N).
Proof.
  repeat split; try (vm_compute; reflexivity).
  exact (sp_radix 16 true true true 2 255 (or_intror (or_intror eq_refl))).
Qed.

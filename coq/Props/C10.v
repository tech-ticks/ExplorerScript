(* C10 - statically meaningless programs are rejected.  Proved over the specification (Lang/SrcSem.v, Lang/Inline.v),
   which the compiler is tied to on every run (whatever the compiler accepts, the specification must give a meaning to:
   harness/checks/c10.py, c01.py, c05.py): a program has a meaning only if it is well scoped, where [well_scoped] is
   a plain recursive predicate over the syntax - no break outside a switch case, no continue or break_loop outside a
   loop, no jump or call to a label not defined in the file, no switch ending in an empty case, at most one default,
   only an operation, assignment or return/end/hold in a with-block, no [not] on a bit of an ordinary variable, no
   label defined twice, no macro call left after expansion; and expansion fails for unknown macros, too few arguments
   and macros that call themselves directly or through others.  "Fails only in documented ways" (the exception types)
   is decided on the real compiler. *)
From ES Require Import Base Lang.Ast Lang.SrcSem Lang.Inline Lang.Static Lang.StaticProofs Lang.Domain
  Lang.DomainProofs Lang.MacroStatic Lang.MacroStaticProofs.

Theorem C10_meaning_only_if_well_scoped : forall perf p r,
  cfg_of_prog perf p = Ok r -> well_scoped perf p = true.
Proof. exact meaning_implies_well_scoped. Qed.
Print Assumptions C10_meaning_only_if_well_scoped.

(* ... and exactly those, once every condition, header, context, assignment and operation name has an event: the static
   predicates are not stricter than the specification (a well-scoped program is never left without a meaning) *)
Theorem C10_domain_exactly : forall perf p,
  (exists r, cfg_of_prog perf p = Ok r) <-> well_scoped perf p = true /\ events_ok perf p = true.
Proof. exact meaning_iff. Qed.
Print Assumptions C10_domain_exactly.

Theorem C10_unknown_macro_rejected : forall p,
  program_has (unknown_macro (p_macros p)) p = true -> is_err (inline p) = true.
Proof. exact unknown_macro_rejected. Qed.
Print Assumptions C10_unknown_macro_rejected.

Theorem C10_too_few_macro_arguments_rejected : forall p,
  program_has (too_few_args (p_macros p)) p = true -> is_err (inline p) = true.
Proof. exact too_few_arguments_rejected. Qed.
Print Assumptions C10_too_few_macro_arguments_rejected.

(* D: macro names each of whose bodies calls a member of D again - a macro calling itself, or a cycle of any length *)
Theorem C10_recursive_macros_rejected : forall p D,
  trap (p_macros p) D = true -> program_has (fun n _ => mem_string n D) p = true -> is_err (inline p) = true.
Proof. exact macro_cycle_rejected. Qed.
Print Assumptions C10_recursive_macros_rejected.

(* non-vacuity: one program of each class named by the property has no meaning *)
Example C10_classes : forall perf,
  let prog_of b := mkProg [] [mkRoutine 0 RGeneric None None false b] in
  let one s := SCons s SNil in
  (forall r, cfg_of_prog perf (prog_of (one (SCtrl KBreak))) <> Ok r) /\
  (forall r, cfg_of_prog perf (prog_of (one (SIf false [CNeg false KwDebug] (one (SCtrl KContinue)) ENil ONone))) <> Ok r) /\
  (forall r, cfg_of_prog perf (prog_of (one (SForever (one (SCtrl KBreak))))) <> Ok r) /\
  (forall r l, cfg_of_prog perf (prog_of (one (SCall l))) <> Ok r) /\
  (forall r h c, cfg_of_prog perf (prog_of (one (SSwitch h (KCase c SNil KNil)))) <> Ok r) /\
  (forall r h b1 b2, cfg_of_prog perf (prog_of (one (SSwitch h (KDefault b1 (KDefault b2 KNil))))) <> Ok r) /\
  (forall r k t l, cfg_of_prog perf (prog_of (SCons (SWith k t (SLabel l)) SNil)) <> Ok r) /\
  (forall r n a, cfg_of_prog perf (prog_of (one (SMacroCall n a))) <> Ok r).
Proof. exact no_meaning_examples. Qed.

(* a cycle through two macros, called from a routine inside a loop inside an if *)
Local Open Scope string_scope.
Example C10_cycle_example :
  let call n := SCons (SMacroCall n []) SNil in
  let p := mkProg [mkMacro "a" [] (SCons (SOp None "x" []) (call "b")); mkMacro "b" [] (SCons (SForever (call "a")) SNil)]
                  [mkRoutine 0 RGeneric None None false
                     (SCons (SIf false [CNeg false KwDebug] (SCons (SForever (call "a")) SNil) ENil ONone) SNil)] in
  trap (p_macros p) ["a"; "b"] = true /\ program_has (fun n _ => mem_string n ["a"; "b"]) p = true /\
  is_err (inline p) = true.
Proof. vm_compute. repeat split; reflexivity. Qed.

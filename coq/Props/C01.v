(* C01 - obligations: the acceptance criterion applied to every compiled program is sound. *)
From ES Require Import Base Ssb.Param Ssb.Cfg Ssb.Equiv Ssb.EquivSound.

(* accepted pair => behavioural equivalence of every paired routine entry, for all test outcomes
   and unboundedly long executions *)
Theorem C01_validator_sound : forall g1 g2 entries,
  equiv_check g1 g2 entries = true -> forall a b, In (a, b) entries -> beh_eq g1 g2 a b.
Proof. exact equiv_check_sound. Qed.
Print Assumptions C01_validator_sound.

(* equivalence = equal sequences of operations and tests under every oracle, to every length *)
Theorem C01_equiv_is_trace_equality : forall g1 g2 a b,
  beh_eq g1 g2 a b -> forall steps orc i, trace steps orc i g1 a = trace steps orc i g2 b.
Proof. exact beh_eq_traces. Qed.
Print Assumptions C01_equiv_is_trace_equality.

Theorem C01_equiv_transitive : forall g1 g2 g3 a b c,
  beh_eq g1 g2 a b -> beh_eq g2 g3 b c -> beh_eq g1 g3 a c.
Proof. exact beh_eq_trans. Qed.
Print Assumptions C01_equiv_transitive.

(* ---- the label-resolution part of the compiler's back end, proved for all inputs ---- *)
From ES Require Import Ssb.Tables Ssb.Machine Comp.Passes Comp.PopSem Comp.RemoveSem Comp.TableRight
  Comp.BackEnd Comp.EraseSem Comp.FinalizeSem Comp.ActSem Comp.StripSem.

(* For the label table LabelFinalizer computes and the op list OpsLabelJumpToRemover builds from it: every
   routine of the op list behaves - for all outcomes of all tests, to every length - like the corresponding
   routine of the pseudo code it was built from (a label is a silent position, a label jump goes to its label).
   [backend_ok] collects the side conditions (no routine ends in a label, no label directly after a context
   op, plain ops carry no jump opcode, label jumps have the table's arity, labels and offsets are unique, no
   cycle of silent moves); it is evaluated on every captured compilation by the check. *)
Theorem C01_label_resolution_preserves : forall rs fin t P',
  finalize rs = (fin, t) -> remove_all t fin = Ok P' -> backend_ok fin P' = true ->
  Forall2 (entry_rel (beh_eq (cfg_of_pops fin) (cfg_of_ssb P'))) (pop_entries fin) (ssb_entries P').
Proof. exact label_resolution_preserves_b. Qed.
Print Assumptions C01_label_resolution_preserves.

(* LabelFinalizer (its removal of jumps to labels that directly follow) keeps the behaviour of every routine.
   [finalize_ok]: no routine ends in a label, nothing but an op directly follows a context op, labels are
   unique, every jumped-to label is defined, no cycle of silent moves. *)
Theorem C01_finalizer_preserves : forall rs fin t,
  finalize rs = (fin, t) -> finalize_ok rs = true ->
  Forall2 (entry_rel (beh_eq (cfg_of_pops rs) (cfg_of_pops fin))) (pop_entries rs) (pop_entries fin).
Proof. exact finalize_preserves. Qed.
Print Assumptions C01_finalizer_preserves.

(* both passes: from the pseudo code that strip_last_label hands over to the final op list *)
Theorem C01_finalize_and_remove_preserve : forall rs fin t P',
  finalize rs = (fin, t) -> remove_all t fin = Ok P' ->
  finalize_ok rs = true -> backend_ok fin P' = true ->
  Forall2 (entry_rel (beh_eq (cfg_of_pops rs) (cfg_of_ssb P'))) (pop_entries rs) (ssb_entries P').
Proof. exact finalize_and_remove_preserve. Qed.
Print Assumptions C01_finalize_and_remove_preserve.

(* strip_last_label keeps the behaviour of every routine (or changes nothing).  [strip_ok] collects, for every
   round on every routine, the side conditions of that round: shape, arities, unique labels, defined jump targets,
   the trailing label is only jumped to by plain jumps of its own routine, no cycle of silent moves. *)
Theorem C01_strip_preserves : forall rs, strip_ok rs = true -> prog_rel rs (strip rs).
Proof. exact strip_preserves. Qed.
Print Assumptions C01_strip_preserves.

(* The whole back end of the compiler - strip_last_label, LabelFinalizer, OpsLabelJumpToRemover: every routine of
   the final op list behaves, for all outcomes of all tests and to every length, like the corresponding routine of
   the pseudo code the handlers emitted. *)
Theorem C01_back_end_preserves : forall rs fin t P',
  finalize (strip rs) = (fin, t) -> remove_all t fin = Ok P' ->
  strip_ok rs = true -> finalize_ok (strip rs) = true -> backend_ok fin P' = true ->
  Forall2 (entry_rel (beh_eq (cfg_of_pops rs) (cfg_of_ssb P'))) (pop_entries rs) (ssb_entries P').
Proof. exact back_end_preserves. Qed.
Print Assumptions C01_back_end_preserves.

(* non-vacuity: a loop with a test, labels at several places, a cross-routine jump *)
Example C01_backend_example :
  let rs := [[PLabel 0; POp (mkOp 1 "a" []); PJump (mkOp 2 "Branch" [PInt 1; PInt 2]) 1; POp (mkOp 3 "b" []);
              PJump (mkOp 4 "Jump" []) 1; PLabel 1; PLabel 2; POp (mkOp 5 "End" []); PJump (mkOp 6 "Jump" []) 0];
             [PJump (mkOp 7 "Jump" []) 2]]%Z%string in
  let '(fin, t) := finalize rs in
  match remove_all t fin with
  | Ok P' => backend_ok fin P' = true /\ finalize_ok rs = true /\ Nat.ltb (length (concat fin)) (length (concat rs)) = true
  | Err _ => False
  end.
Proof. vm_compute. repeat split; reflexivity. Qed.

Example C01_strip_example :
  let rs := [[POp (mkOp 1 "a" []); PJump (mkOp 2 "Branch" [PInt 1; PInt 2]) 3; PJump (mkOp 3 "Jump" []) 9; PLabel 3;
              POp (mkOp 4 "End" []); PJump (mkOp 5 "Jump" []) 9; PLabel 9]]%Z%string in
  strip_ok rs = true /\ strip rs <> rs /\ finalize_ok (strip rs) = true.
Proof. vm_compute. repeat split. discriminate. Qed.

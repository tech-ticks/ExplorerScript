(* C11 - results depend only on the input, not on what was processed before.
   The theorem is the frame argument; the two frame conditions are what the harness checks on the
   real process state after every call (harness/audit.py). *)
From ES Require Import Base Hist.Frame.

Theorem C11_history_independent :
  forall (call st out view : Type) (exec : call -> st -> out * st) (obs : st -> view) (s0 : st),
    (forall c s s', obs s = obs s' -> fst (exec c s) = fst (exec c s')) ->
    (forall c s, obs s = obs s0 -> obs (snd (exec c s)) = obs s0) ->
    forall (h : list call) (c : call),
      fst (exec c (run call st out exec h s0)) = fst (exec c s0).
Proof. exact history_independent. Qed.
Print Assumptions C11_history_independent.

Theorem C11_results_pointwise :
  forall (call st out view : Type) (exec : call -> st -> out * st) (obs : st -> view) (s0 : st),
    (forall c s s', obs s = obs s' -> fst (exec c s) = fst (exec c s')) ->
    (forall c s, obs s = obs s0 -> obs (snd (exec c s)) = obs s0) ->
    forall (h : list call), results call st out exec h s0 = map (fun c => fst (exec c s0)) h.
Proof. intros call st out view exec obs s0 R K h. exact (results_pointwise call st out view exec obs s0 R K h s0 eq_refl). Qed.
Print Assumptions C11_results_pointwise.

(* ---- non-vacuity: a process with a shared stack and a memo table keyed by recycled ids ---- *)
Definition pstate := (list nat * (nat -> option nat))%type.      (* (class-level stack, memo table) *)
Definition set_memo (m : nat -> option nat) (g : nat) (v : option nat) : nat -> option nat :=
  fun k => if Nat.eqb k g then v else m k.

(* a well-behaved call: clears the memo entry of its graph id before use, pushes and pops the stack *)
Definition good_exec (c : nat) (s : pstate) : nat * pstate :=
  let g := Nat.modulo c 3 in
  let m1 := set_memo (snd s) g None in
  let r := c + length (fst s) in
  (r, (fst s, set_memo m1 g (Some r))).

Example good_satisfies_frame :
  (forall c s s', fst s = fst s' -> fst (good_exec c s) = fst (good_exec c s')) /\
  (forall c (s : pstate), fst s = @nil nat -> fst (snd (good_exec c s)) = @nil nat).
Proof. split; intros; unfold good_exec; cbn [fst snd]; congruence. Qed.

(* a call that leaves residue on the shared stack when it "fails" (odd inputs): results then depend on history *)
Definition leaky_exec (c : nat) (s : pstate) : nat * pstate :=
  let r := c + length (fst s) in
  (r, (if Nat.odd c then c :: fst s else fst s, snd s)).

Example leaky_depends_on_history :
  fst (leaky_exec 2 (run nat pstate nat leaky_exec [1] ([], fun _ => None))) <> fst (leaky_exec 2 ([], fun _ => None)).
Proof. vm_compute. discriminate. Qed.

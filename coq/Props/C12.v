(* C12 - concurrent calls give the sequential results.
   The theorem: threads whose steps read and write only the cells they own (their own objects and the
   memo entries keyed by graphs they built themselves) end, under every schedule, with the results
   they reach when run alone.  The ownership discipline is what the harness checks on the real memo
   table and shared containers while threads run (harness/audit.py). *)
From ES Require Import Base Hist.Frame.

Theorem C12_schedule_independent :
  forall (cell val loc : Type) (owner : cell -> nat) (step : nat -> loc -> (cell -> val) -> loc * (cell -> val)),
    (forall t l m m', agree_on cell val owner t m m' ->
        fst (step t l m) = fst (step t l m') /\ agree_on cell val owner t (snd (step t l m)) (snd (step t l m'))) ->
    (forall t l m k, owner k <> t -> snd (step t l m) k = m k) ->
    forall (sch : list nat) (ls : nat -> loc) (m : cell -> val) (t : nat),
      fst (run_sched cell val loc step sch ls m) t =
      fst (run_alone cell val loc step t (steps_of t sch) (ls t) m).
Proof. intros cell val loc owner step R W sch ls m t. exact (proj1 (schedule_independent cell val loc owner step R W sch ls m t)). Qed.
Print Assumptions C12_schedule_independent.

(* non-vacuity: two threads with one cell each; thread t adds its step count to its own cell *)
Definition ex_step (t : nat) (l : nat) (m : nat -> nat) : nat * (nat -> nat) :=
  (l + m t, fun k => if Nat.eqb k t then S (m k) else m k).

Example ex_step_owns :
  (forall t l m m', agree_on nat nat (fun k => k) t m m' ->
      fst (ex_step t l m) = fst (ex_step t l m') /\ agree_on nat nat (fun k => k) t (snd (ex_step t l m)) (snd (ex_step t l m'))) /\
  (forall t l m k, k <> t -> snd (ex_step t l m) k = m k).
Proof.
  split.
  - intros t l m m' H. unfold ex_step, agree_on in *. cbn [fst snd]. split.
    + rewrite (H t eq_refl). reflexivity.
    + intros k Hk. subst k. rewrite Nat.eqb_refl. rewrite (H t eq_refl). reflexivity.
  - intros t l m k Hk. unfold ex_step. cbn [snd]. destruct (Nat.eqb k t) eqn:E; [apply Nat.eqb_eq in E; contradiction | reflexivity].
Qed.

(* a step that reads another thread's cell is schedule dependent *)
Definition bad_step (t : nat) (l : nat) (m : nat -> nat) : nat * (nat -> nat) :=
  (l + m 0, fun k => if Nat.eqb k t then S (m k) else m k).
Example bad_depends_on_schedule :
  fst (run_sched nat nat nat bad_step [0; 1] (fun _ => 0) (fun _ => 0)) 1 <>
  fst (run_sched nat nat nat bad_step [1; 0] (fun _ => 0) (fun _ => 0)) 1.
Proof. vm_compute. discriminate. Qed.

(* History independence (C11) and schedule independence (C12) as frame arguments.

   A process is a state; a call maps a state to a result and a new state.  What the code under
   /repo has to provide are the two frame conditions below; the harness checks them on the real
   process state after every call of every generated history (harness/audit.py):
     - reads_only_obs : the result of a call depends on the state only through [obs], the part of
       the process state calls read.  (The decompiler's memo table is not part of [obs]: entries are
       only read by the call that wrote them - checked by tagging every entry with the call that
       created it.)
     - restores_obs   : a call leaves [obs] as it was at start-up (no residue in module-level or
       class-level containers), whether it returns or raises.
   Under these conditions every call returns, after any history, what it returns as first call of
   a fresh process. *)
From ES Require Import Base.

Section Frame.
  Variables (call st out view : Type).
  Variable exec : call -> st -> out * st.
  Variable obs : st -> view.
  Variable s0 : st.

  Hypothesis reads_only_obs : forall c s s', obs s = obs s' -> fst (exec c s) = fst (exec c s').
  Hypothesis restores_obs : forall c s, obs s = obs s0 -> obs (snd (exec c s)) = obs s0.

  Definition run (h : list call) (s : st) : st := fold_left (fun s c => snd (exec c s)) h s.

  Lemma run_keeps_obs : forall h s, obs s = obs s0 -> obs (run h s) = obs s0.
  Proof. intro h. apply (fold_left_inv (fun s => obs s = obs s0)). intros s c _. apply restores_obs. Qed.

  (* the result of a call after any history = its result in a fresh process *)
  Theorem history_independent : forall h c, fst (exec c (run h s0)) = fst (exec c s0).
  Proof. intros h c. apply reads_only_obs. apply run_keeps_obs. reflexivity. Qed.

  (* all results of a history, call by call *)
  Fixpoint results (h : list call) (s : st) : list out :=
    match h with [] => [] | c :: r => fst (exec c s) :: results r (snd (exec c s)) end.

  Theorem results_pointwise : forall h s, obs s = obs s0 -> results h s = map (fun c => fst (exec c s0)) h.
  Proof.
    induction h as [|c h IH]; intros s H; [reflexivity|].
    cbn [results map]. f_equal; [apply reads_only_obs; exact H | apply IH; apply restores_obs; exact H].
  Qed.
End Frame.

Section Schedules.
  (* the shared store is a map from cells to values; thread [t] owns the cells with [owner k = t]
     (for the decompiler: the memo entries keyed by the graphs this thread built).  A step of thread
     [t] is a function of the thread's local state and the store restricted to its own cells, and
     writes only its own cells. *)
  Variables (cell val loc : Type).
  Variable owner : cell -> nat.
  Definition store := cell -> val.
  Variable step : nat -> loc -> store -> loc * store.

  Definition agree_on (t : nat) (m m' : store) : Prop := forall k, owner k = t -> m k = m' k.

  Hypothesis step_reads_own : forall t l m m', agree_on t m m' ->
    fst (step t l m) = fst (step t l m') /\ agree_on t (snd (step t l m)) (snd (step t l m')).
  Hypothesis step_writes_own : forall t l m k, owner k <> t -> snd (step t l m) k = m k.

  (* thread-local states of all threads *)
  Definition locals := nat -> loc.
  Definition upd (ls : locals) (t : nat) (l : loc) : locals := fun u => if Nat.eqb u t then l else ls u.

  (* a schedule is the sequence of thread ids that take a step *)
  Fixpoint run_sched (sch : list nat) (ls : locals) (m : store) : locals * store :=
    match sch with
    | [] => (ls, m)
    | t :: r => let '(l', m') := step t (ls t) m in run_sched r (upd ls t l') m'
    end.

  (* thread [t] alone takes as many steps as it takes in the schedule *)
  Fixpoint run_alone (t : nat) (n : nat) (l : loc) (m : store) : loc * store :=
    match n with
    | O => (l, m)
    | S n' => let '(l', m') := step t l m in run_alone t n' l' m'
    end.

  Definition steps_of (t : nat) (sch : list nat) : nat := length (filter (Nat.eqb t) sch).

  Lemma run_alone_agree t n : forall l m m', agree_on t m m' ->
    fst (run_alone t n l m) = fst (run_alone t n l m') /\
    agree_on t (snd (run_alone t n l m)) (snd (run_alone t n l m')).
  Proof.
    induction n as [|n IH]; intros l m m' H; [split; [reflexivity | exact H]|].
    cbn [run_alone]. destruct (step_reads_own t l m m' H) as [E A].
    destruct (step t l m) as [l1 m1], (step t l m') as [l2 m2]. cbn [fst snd] in E, A. subst l2.
    apply IH. exact A.
  Qed.

  Lemma upd_same ls t l : upd ls t l t = l.
  Proof. unfold upd. rewrite Nat.eqb_refl. reflexivity. Qed.

  Lemma upd_other ls u l t : t <> u -> upd ls u l t = ls t.
  Proof. unfold upd. intro H. destruct (Nat.eqb_spec t u); [contradiction | reflexivity]. Qed.

  (* whatever the other threads do in between, a thread ends with the local state (its results)
     it reaches when it runs alone, and its own cells hold what they hold then *)
  Theorem schedule_independent : forall sch ls m t,
    fst (run_sched sch ls m) t = fst (run_alone t (steps_of t sch) (ls t) m) /\
    agree_on t (snd (run_sched sch ls m)) (snd (run_alone t (steps_of t sch) (ls t) m)).
  Proof.
    induction sch as [|u sch IH]; intros ls m t; [split; [reflexivity | intros k _; reflexivity]|].
    unfold steps_of in *. cbn [run_sched filter].
    destruct (step u (ls u) m) as [l' m'] eqn:Es. destruct (Nat.eqb_spec t u) as [<-|Ne].
    - cbn [length run_alone]. rewrite Es. specialize (IH (upd ls t l') m' t). rewrite upd_same in IH. exact IH.
    - (* a step of another thread leaves the cells of [t] alone, so [t] runs from [m'] as from [m] *)
      specialize (IH (upd ls u l') m' t). rewrite (upd_other _ _ _ _ Ne) in IH. destruct IH as [IH1 IH2].
      destruct (run_alone_agree t (length (filter (Nat.eqb t) sch)) (ls t) m' m) as [R1 R2].
      { intros k Hk. change m' with (snd (l', m')). rewrite <- Es. apply step_writes_own. congruence. }
      split; [rewrite IH1; exact R1 | intros k Hk; rewrite (IH2 k Hk); apply R2, Hk].
  Qed.
End Schedules.

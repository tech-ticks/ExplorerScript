(* Adding a constant to every offset and every jump target does not change the machine's view of a routine set; the
   numbering of the compile command's JSON output - every jump parameter is the 1-based position of its target,
   counted across all routines, and the decompile command numbers the ops it reads in the same way - is the position
   numbering of Script/Model.v shifted by one. *)
From ES Require Import Base Ssb.Param Ssb.Machine Script.Model Script.Proofs Script.Renumber.

Fixpoint replace_nth {A} (n : nat) (x : A) (l : list A) : list A :=
  match l, n with
  | [], _ => []
  | _ :: r, O => x :: r
  | y :: r, S n' => y :: replace_nth n' x r
  end.

Definition shift_op (d : Z) (o : op) : op :=
  match jump_index (code o) with
  | Some idx =>
      match nth_error (params o) idx with
      | Some (PInt z) => mkOp (off o + d) (code o) (replace_nth idx (PInt (z + d)%Z) (params o))
      | _ => mkOp (off o + d) (code o) (params o)
      end
  | None => mkOp (off o + d) (code o) (params o)
  end.

Definition shift (d : Z) (P : program) : program := map (map (shift_op d)) P.

(* the numbering of the command line tools *)
Definition cli_number (P : program) : program := shift 1 (renumber P).

Lemma shift_off d o : off (shift_op d o) = (off o + d)%Z.
Proof.
  unfold shift_op. destruct (jump_index (code o)) as [idx|]; [|reflexivity].
  destruct (nth_error (params o) idx) as [[z| | | | |]|]; reflexivity.
Qed.

Lemma shift_code d o : code (shift_op d o) = code o.
Proof.
  unfold shift_op. destruct (jump_index (code o)) as [idx|]; [|reflexivity].
  destruct (nth_error (params o) idx) as [[z| | | | |]|]; reflexivity.
Qed.

Lemma find_off_shift d z l : forall i, find_off (z + d) (map (shift_op d) l) i = find_off z l i.
Proof.
  induction l as [|o l IH]; intro i; [reflexivity|]. cbn [map find_off]. rewrite shift_off, IH.
  destruct (Z.eqb_spec (off o) z), (Z.eqb_spec (off o + d) (z + d)); reflexivity || lia.
Qed.

Lemma nth_error_replace {A} (x : A) l : forall n y, nth_error l n = Some y -> nth_error (replace_nth n x l) n = Some x.
Proof.
  induction l as [|a l IH]; intros n y H; [destruct n; discriminate H|].
  destruct n; cbn [replace_nth nth_error] in *; [reflexivity | eapply IH; exact H].
Qed.

Lemma remove_replace {A} (x : A) l : forall n, remove_nth n (replace_nth n x l) = remove_nth n l.
Proof.
  induction l as [|a l IH]; intro n; [destruct n; reflexivity|].
  destruct n; cbn [replace_nth remove_nth]; [reflexivity | rewrite IH; reflexivity].
Qed.

Lemma view_shift d all o : view (map (shift_op d) all) (shift_op d o) = view all o.
Proof.
  assert (Hnone : tgt o = None -> view (map (shift_op d) all) (mkOp (off o + d) (code o) (params o)) = view all o).
  { unfold view, tgt, strip_op. cbn [code params]. destruct (jump_index (code o)); [intros ->|]; reflexivity. }
  unfold tgt in Hnone. unfold shift_op at 2.
  destruct (jump_index (code o)) as [idx|] eqn:J; [|apply Hnone; reflexivity].
  destruct (nth_error (params o) idx) as [[z| | | | |]|] eqn:N; try (apply Hnone; reflexivity).
  unfold view, tgt, strip_op. cbn [code params]. rewrite J, N, (nth_error_replace _ _ _ _ N), remove_replace.
  cbn [option_map]. rewrite find_off_shift. reflexivity.
Qed.

Lemma all_ops_shift d P : all_ops (shift d P) = map (shift_op d) (all_ops P).
Proof. unfold all_ops, shift. rewrite concat_map. reflexivity. Qed.

Theorem shift_same_cfg d P : cfg_of_ssb (shift d P) = cfg_of_ssb P /\ ssb_entries (shift d P) = ssb_entries P.
Proof.
  apply same_views_same_cfg. rewrite all_ops_shift.
  apply Forall2_map_r. intros r _. apply Forall2_map_r. intros o _. apply view_shift.
Qed.

Theorem cli_number_same_cfg P :
  forallb (op_wf_script (all_ops P)) (all_ops P) = true ->
  cfg_of_ssb (cli_number P) = cfg_of_ssb P /\ ssb_entries (cli_number P) = ssb_entries P.
Proof.
  intro Hwf. unfold cli_number. destruct (shift_same_cfg 1 (renumber P)) as [-> ->]. apply renumber_same_cfg, Hwf.
Qed.

(* The machine reads an op only through its [view]: its name, its parameters without the jump target, and
   the node the target resolves to.  Routine sets with the same views have the same flow graph, node for
   node ([same_views_same_cfg]).  Position numbering keeps the views ([renumber_same_cfg]; used by C07, C15
   and by the harness, which hands the decompiler routine sets numbered by position), and so does adding a
   constant to every offset and target (Script/Shift.v). *)
From ES Require Import Base Ssb.Param Ssb.Cfg Ssb.Machine Script.Model Script.Proofs.

Definition view (all : list op) (o : op) : string * list param * option (option nat) :=
  (code o, params (strip_op o), option_map (fun z => find_off z all 0) (tgt o)).

Definition node_of_view (stopn : nat) (v : string * list param * option (option nat)) (nxt : nat) (prev_ctx : bool) : node :=
  let '(c, ps, t) := v in
  match jump_index c with
  | Some _ =>
      match t with
      | Some (Some n) => if is_jump c then NGoto n else NTest (c, ps) n nxt
      | _ => NStuck
      end
  | None => if ends_flow c && negb prev_ctx then NOp (c, ps) stopn else NOp (c, ps) nxt
  end.

Lemma node_of_op_view all stopn o nxt pc : node_of_op all stopn o nxt pc = node_of_view stopn (view all o) nxt pc.
Proof.
  unfold node_of_op, node_of_view, view, tgt, strip_op.
  destruct (jump_index (code o)) as [idx|]; [|reflexivity].
  destruct (nth_error (params o) idx) as [[z| | | | |]|]; reflexivity.
Qed.

Definition same_view (all all' : list op) (o o' : op) : Prop := view all' o' = view all o.

Section SameViews.
  Variables (all all' : list op) (fall stopn : nat).

  Lemma nodes_of_routine_views r r' : Forall2 (same_view all all') r r' ->
    forall g pc, nodes_of_routine all' fall stopn r' g pc = nodes_of_routine all fall stopn r g pc.
  Proof.
    induction 1 as [|o o' r r' Hv Hr IH]; intros g pc; [reflexivity|].
    cbn [nodes_of_routine]. unfold same_view in Hv. rewrite !node_of_op_view, Hv, IH.
    apply (f_equal (fun v => fst (fst v))) in Hv. cbn [view fst] in Hv. rewrite Hv.
    (* [r] and [r'] are empty together, so both ops continue at the same node *)
    destruct Hr; reflexivity.
  Qed.

  Lemma nodes_of_program_views P P' : Forall2 (Forall2 (same_view all all')) P P' ->
    forall g, nodes_of_program all' fall stopn P' g = nodes_of_program all fall stopn P g /\
              entries_of P' g = entries_of P g.
  Proof.
    induction 1 as [|r r' P P' Hr _ IH]; intros g; [split; reflexivity|].
    cbn [nodes_of_program entries_of].
    rewrite (nodes_of_routine_views _ _ Hr), <- (Forall2_length _ _ _ Hr). destruct (IH (g + length r)) as [-> ->].
    destruct Hr; split; reflexivity.
  Qed.
End SameViews.

Theorem same_views_same_cfg P P' :
  Forall2 (Forall2 (same_view (all_ops P) (all_ops P'))) P P' ->
  cfg_of_ssb P' = cfg_of_ssb P /\ ssb_entries P' = ssb_entries P.
Proof.
  intro H. unfold cfg_of_ssb, ssb_entries.
  rewrite <- (Forall2_length _ _ _ (Forall2_concat _ _ _ H : Forall2 _ (all_ops P) (all_ops P'))).
  destruct (nodes_of_program_views _ _ (length (all_ops P)) (S (length (all_ops P))) _ _ H 0) as [-> ->].
  split; reflexivity.
Qed.

Lemma find_pos z l : forall i k,
  match find_off z l i, pos_of_off z l k with
  | Some n, Some p => i <= n /\ p = (k + Z.of_nat (n - i))%Z
  | None, None => True
  | _, _ => False
  end.
Proof.
  induction l as [|o l IH]; intros i k; cbn [find_off pos_of_off]; [trivial|].
  destruct (Z.eqb (off o) z).
  - split; [apply Nat.le_refl|]. rewrite Nat.sub_diag, Z.add_0_r. reflexivity.
  - specialize (IH (S i) (k + 1)%Z).
    destruct (find_off z l (S i)) as [n|], (pos_of_off z l (k + 1)%Z) as [p|]; try exact IH.
    destruct IH as [? ->]. lia.
Qed.

Lemma pos_lt z l : forall k p, pos_of_off z l k = Some p -> (k <= p < k + Z.of_nat (length l))%Z.
Proof.
  induction l as [|o l IH]; intros k p H; cbn [pos_of_off] in H; [discriminate|].
  cbn [length]. destruct (Z.eqb (off o) z).
  - injection H as <-. lia.
  - apply IH in H. lia.
Qed.

Lemma renumber_off all o k : off (renumber_op all o k) = k.
Proof. rewrite renumber_op_tgt. reflexivity. Qed.

Lemma renumber_code all o k : code (renumber_op all o k) = code o.
Proof. rewrite renumber_op_tgt. reflexivity. Qed.

Lemma renumber_routine_length all r : forall k, length (renumber_routine all r k) = length r.
Proof. induction r as [|o r IH]; intro k; cbn [renumber_routine length]; [reflexivity | rewrite IH; reflexivity]. Qed.

Lemma renumber_routine_app all r1 : forall r2 k,
  renumber_routine all (r1 ++ r2) k = renumber_routine all r1 k ++ renumber_routine all r2 (k + Z.of_nat (length r1))%Z.
Proof.
  induction r1 as [|o r1 IH]; intros r2 k.
  - cbn [app renumber_routine length Z.of_nat]. rewrite Z.add_0_r. reflexivity.
  - cbn [app renumber_routine length]. rewrite IH, Nat2Z.inj_succ, <- Z.add_1_l, Z.add_assoc. reflexivity.
Qed.

Lemma renumber_from_concat all P : forall k,
  concat (renumber_from all P k) = renumber_routine all (concat P) k.
Proof.
  induction P as [|r P IH]; intro k; [reflexivity|].
  cbn [renumber_from concat]. rewrite IH, renumber_routine_app. reflexivity.
Qed.

Lemma find_off_renumbered all r : forall k i p,
  (k <= p < k + Z.of_nat (length r))%Z ->
  find_off p (renumber_routine all r k) i = Some (i + Z.to_nat (p - k)).
Proof.
  induction r as [|o r IH]; intros k i p H; cbn [length] in H; [lia|].
  cbn [renumber_routine find_off]. rewrite renumber_off.
  destruct (Z.eqb_spec k p) as [->|E].
  - rewrite Z.sub_diag, Nat.add_0_r. reflexivity.
  - rewrite IH by lia. f_equal. lia.
Qed.

Lemma find_off_pos all z r k i p :
  pos_of_off z r k = Some p -> find_off p (renumber_routine all r k) i = find_off z r i.
Proof.
  intro H. pose proof (find_pos z r i k) as F. rewrite H in F. rewrite find_off_renumbered by (apply pos_lt in H; lia).
  destruct (find_off z r i) as [n|]; [|contradiction]. f_equal. lia.
Qed.

Lemma remove_nth_app_last {A} (l : list A) x : remove_nth (length l) (l ++ [x]) = l.
Proof. induction l as [|y l IH]; cbn [length app remove_nth]; [reflexivity | rewrite IH; reflexivity]. Qed.

Lemma remove_nth_length {A} (l : list A) : forall n, n < length l -> S (length (remove_nth n l)) = length l.
Proof.
  induction l as [|y l IH]; intros n H; [inversion H|].
  destruct n; cbn [remove_nth length]; [reflexivity|]. f_equal. apply IH, Nat.succ_lt_mono, H.
Qed.

(* the view of an op whose target stands last, as the compilers build it *)
Lemma view_last all k c ps z : jump_index c = Some (length ps) ->
  view all (mkOp k c (ps ++ [PInt z])) = (c, ps, Some (find_off z all 0)).
Proof.
  intro J. unfold view, tgt, strip_op. cbn [code params]. rewrite J, nth_error_app_last, remove_nth_app_last. reflexivity.
Qed.

Lemma view_renumbered all all' o k :
  op_wf_script all o = true ->
  (forall z p, pos_of_off z all 0 = Some p -> find_off p all' 0 = find_off z all 0) ->
  view all' (renumber_op all o k) = view all o.
Proof.
  intros Hwf Hfind. pose proof (op_wf_script_wf _ _ Hwf) as Hex. unfold op_wf_script in Hwf. unfold op_wf in Hex.
  unfold renumber_op, view at 2, tgt, strip_op. destruct (jump_index (code o)) as [idx|] eqn:J.
  2: { unfold view, tgt, strip_op. cbn [code]. rewrite J. reflexivity. }
  apply andb_prop in Hwf as [Hlen _]. apply Nat.eqb_eq in Hlen.
  destruct Hex as (z & Hz & Hin). destruct (pos_of_off_exists z all 0 Hin) as [p Hp].
  rewrite Hz, Hp, view_last, (Hfind _ _ Hp); [reflexivity|].
  (* the arity makes the target the last parameter *)
  rewrite J. f_equal. apply eq_add_S. rewrite remove_nth_length; [symmetry; exact Hlen | rewrite Hlen; apply Nat.lt_succ_diag_r].
Qed.

Lemma renumber_routine_Forall2 (R : op -> op -> Prop) all r :
  (forall o k, In o r -> R o (renumber_op all o k)) -> forall k, Forall2 R r (renumber_routine all r k).
Proof.
  induction r as [|o r IH]; intros H k; constructor; [apply H; left; reflexivity|].
  apply IH. intros o' k' Hin. apply H. right. exact Hin.
Qed.

Lemma renumber_from_Forall2 (R : op -> op -> Prop) all P :
  (forall o k, In o (concat P) -> R o (renumber_op all o k)) -> forall k, Forall2 (Forall2 R) P (renumber_from all P k).
Proof.
  induction P as [|r P IH]; intros H k; constructor.
  - apply renumber_routine_Forall2. intros o k' Hin. apply H, in_or_app. left. exact Hin.
  - apply IH. intros o k' Hin. apply H, in_or_app. right. exact Hin.
Qed.

Theorem renumber_same_cfg (P : program) :
  forallb (op_wf_script (all_ops P)) (all_ops P) = true ->
  cfg_of_ssb (renumber P) = cfg_of_ssb P /\ ssb_entries (renumber P) = ssb_entries P.
Proof.
  intro Hwf. apply same_views_same_cfg, renumber_from_Forall2. intros o k Hin.
  apply view_renumbered; [apply (proj1 (forallb_forall _ _) Hwf), Hin|].
  intros z p Hp. unfold renumber, all_ops. rewrite renumber_from_concat. apply find_off_pos, Hp.
Qed.

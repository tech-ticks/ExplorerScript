(* SsbScript round trip: compiling the statement lists printed for a routine set gives the same
   routine set with position numbering (Script.Model.renumber), for every routine set with unique
   offsets whose jump-carrying ops have an integer target that is the offset of an op of the set.
   Printing is described through the label table the resolver ends with, [ext_all [] P] ([print_script_spec]): the
   table only grows, so what it answered for an op earlier it answers at the end ([res_above]).  Compiling is
   described for the text printed under any table ([compile_printed]): if the table knows every target and gives
   distinct targets distinct labels, then with unique offsets a label's offset in the listener's table is the position
   of the jump's target ([loffs_lookup]).  The resolver's table is such a table ([ext_ops_has], [ext_ops_label_inj]). *)
From ES Require Import Base Ssb.Param Ssb.Machine Script.Model.

Definition tgt (o : op) : option Z :=
  match jump_index (code o) with
  | Some idx => match nth_error (params o) idx with Some (PInt z) => Some z | _ => None end
  | None => None
  end.

Definition strip_op (o : op) : op :=
  match jump_index (code o) with
  | Some idx => mkOp (off o) (code o) (remove_nth idx (params o))
  | None => o
  end.

(* what printing needs of an op: a target is there.  [op_wf] below adds that it is an offset of the set,
   [op_wf_script] (Script/Model.v) the arity *)
Definition op_ok (o : op) : Prop :=
  match jump_index (code o) with
  | None => True
  | Some idx => exists z, nth_error (params o) idx = Some (PInt z)
  end.

Definition ext_op (t : table) (o : op) : table :=
  match tgt o with
  | Some z => match tlookup z t with Some _ => t | None => (z, next_id t) :: t end
  | None => t
  end.
Definition ext_ops (t : table) (r : list op) : table := fold_left ext_op r t.
Definition ext_all (t : table) (P : program) : table := fold_left ext_ops P t.

(* the label printed as jump argument of [o], under table [T] *)
Definition jl (T : table) (o : op) : option nat :=
  match tgt o with Some z => tlookup z T | None => None end.

Lemma strip_off o : off (strip_op o) = off o.
Proof. unfold strip_op. destruct (jump_index (code o)); reflexivity. Qed.
Lemma strip_code o : code (strip_op o) = code o.
Proof. unfold strip_op. destruct (jump_index (code o)); reflexivity. Qed.

Lemma resolve_op_spec o t :
  op_ok o -> resolve_op o t = Ok (strip_op o, jl (ext_op t o) o, ext_op t o).
Proof.
  (* [case], not [destruct]: with the error texts of [resolve_op] in the goal, searching it up to conversion is dear *)
  unfold op_ok, resolve_op, strip_op, jl, ext_op, tgt.
  case (jump_index (code o)); [|reflexivity]. intros idx [z Hz].
  rewrite Hz, (proj2 (Nat.ltb_ge _ _)) by (apply Nat.lt_le_incl, nth_error_Some; rewrite Hz; discriminate).
  destruct (tlookup z t) as [l|] eqn:E; [rewrite E; reflexivity|].
  cbn [tlookup]. rewrite Z.eqb_refl. reflexivity.
Qed.

Lemma ext_op_stable t o z l : tlookup z t = Some l -> tlookup z (ext_op t o) = Some l.
Proof.
  intro H. unfold ext_op. destruct (tgt o) as [z'|]; [|exact H].
  destruct (tlookup z' t) eqn:E; [exact H|].
  cbn [tlookup]. destruct (Z.eqb_spec z' z) as [->|_]; [congruence | exact H].
Qed.

Lemma ext_ops_stable r : forall t z l, tlookup z t = Some l -> tlookup z (ext_ops t r) = Some l.
Proof. intros t z l. apply (fold_left_inv (fun t => tlookup z t = Some l)). intros t' o _. apply ext_op_stable. Qed.

Lemma ext_all_stable P : forall t z l, tlookup z t = Some l -> tlookup z (ext_all t P) = Some l.
Proof. intros t z l. apply (fold_left_inv (fun t => tlookup z t = Some l)). intros t' r _. apply ext_ops_stable. Qed.

Definition knows (t : table) (o : op) : Prop := forall z, tgt o = Some z -> exists l, tlookup z t = Some l.

Lemma ext_op_has t o : knows (ext_op t o) o.
Proof.
  intros z H. unfold ext_op. rewrite H. destruct (tlookup z t) as [l|] eqn:E.
  - exists l. exact E.
  - exists (next_id t). cbn [tlookup]. rewrite Z.eqb_refl. reflexivity.
Qed.

Lemma ext_ops_has r : forall t o, In o r -> knows (ext_ops t r) o.
Proof.
  induction r as [|o' r IH]; intros t o Hin z Ht; [contradiction|].
  cbn [ext_ops fold_left]. destruct Hin as [->|Hin].
  - destruct (ext_op_has t o z Ht) as [l Hl]. exists l. apply ext_ops_stable. exact Hl.
  - apply (IH _ o Hin z Ht).
Qed.

Lemma ext_all_concat P : forall t, ext_all t P = ext_ops t (concat P).
Proof.
  induction P as [|r P IH]; intro t; [reflexivity|].
  change (ext_all (ext_ops t r) P = ext_ops t (r ++ concat P)). rewrite IH.
  unfold ext_ops. rewrite fold_left_app. reflexivity.
Qed.

Definition res (T : table) (o : op) : op * option nat := (strip_op o, jl T o).

(* a table that knows the target of [o] resolves [o] as every table above it does *)
Lemma res_above t T o :
  knows t o -> (forall z l, tlookup z t = Some l -> tlookup z T = Some l) -> res T o = res t o.
Proof.
  intros Hhas Hext. unfold res, jl. destruct (tgt o) as [z|] eqn:E; [|reflexivity].
  destruct (Hhas z E) as [l Hl]. rewrite Hl, (Hext _ _ Hl). reflexivity.
Qed.

Lemma resolve_ops_spec r : forall t, Forall op_ok r ->
  resolve_ops r t = Ok (map (res (ext_ops t r)) r, ext_ops t r).
Proof.
  induction r as [|o r IH]; intros t H; [reflexivity|].
  cbn [resolve_ops]. rewrite (resolve_op_spec o t (Forall_inv H)). cbn [bind]. rewrite (IH _ (Forall_inv_tail H)). cbn [bind map].
  change (ext_ops t (o :: r)) with (ext_ops (ext_op t o) r).
  rewrite (res_above (ext_op t o) (ext_ops (ext_op t o) r) o (ext_op_has t o) (ext_ops_stable r _)). reflexivity.
Qed.

Lemma resolve_all_spec P : forall t, Forall op_ok (concat P) ->
  resolve_all P t = Ok (map (map (res (ext_all t P))) P, ext_all t P).
Proof.
  induction P as [|r P IH]; intros t H; [reflexivity|]. cbn [concat] in H. apply Forall_app in H. destruct H as [Hr HP].
  cbn [resolve_all]. rewrite (resolve_ops_spec r t Hr). cbn [bind]. rewrite (IH _ HP). cbn [bind map].
  change (ext_all t (r :: P)) with (ext_all (ext_ops t r) P).
  rewrite (map_ext_in _ _ r (fun o Hin => res_above _ (ext_all (ext_ops t r) P) o (ext_ops_has r t o Hin) (ext_all_stable P _))).
  reflexivity.
Qed.

Definition stm_of (T : table) (o : op) : list sstmt :=
  match tlookup (off o) T with
  | Some l => [SLab l; SOpS (code o) (params (strip_op o)) (jl T o)]
  | None => [SOpS (code o) (params (strip_op o)) (jl T o)]
  end.

Lemma interleave_spec T r : interleave (map (res T) r) T = flat_map (stm_of T) r.
Proof.
  induction r as [|o r IH]; [reflexivity|].
  cbn [map interleave flat_map]. unfold res at 1. unfold stm_of at 1.
  rewrite strip_off, strip_code. destruct (tlookup (off o) T); cbn [app]; rewrite IH; reflexivity.
Qed.

Lemma print_script_spec P :
  Forall op_ok (all_ops P) -> print_script P = Ok (map (fun r => flat_map (stm_of (ext_all [] P)) r) P).
Proof.
  intro H. unfold print_script. rewrite (resolve_all_spec P [] H). cbn [bind]. f_equal.
  rewrite map_map. apply map_ext. intro r. apply interleave_spec.
Qed.

Definition lop_of (T : table) (o : op) (k : Z) : lop :=
  let o' := mkOp k (code o) (params (strip_op o)) in
  match jl T o with Some l => LJump o' l | None => LOp o' end.

Fixpoint lops (T : table) (r : list op) (k : Z) : list lop :=
  match r with [] => [] | o :: rest => lop_of T o k :: lops T rest (k + 1)%Z end.

(* newest first: [olookup] sees the last op a label stands before *)
Fixpoint loffs (T : table) (r : list op) (k : Z) (O : list (nat * Z)) : list (nat * Z) :=
  match r with
  | [] => O
  | o :: rest => loffs T rest (k + 1)%Z (match tlookup (off o) T with Some l => (l, k) :: O | None => O end)
  end.

Lemma listen_spec T r : forall k O,
  listen (flat_map (stm_of T) r) (mkL k [] O) =
  (lops T r k, mkL (k + Z.of_nat (length r))%Z [] (loffs T r k O)).
Proof.
  induction r as [|o r IH]; intros k O.
  - cbn [flat_map listen lops loffs length Z.of_nat]. rewrite Z.add_0_r. reflexivity.
  - cbn [flat_map lops loffs]. unfold stm_of at 1.
    replace (k + Z.of_nat (length (o :: r)))%Z with ((k + 1) + Z.of_nat (length r))%Z
      by (cbn [length]; lia).
    destruct (tlookup (off o) T) as [l|]; cbn [app listen l_total l_pending l_offsets assign_all];
      rewrite IH; unfold lop_of; destruct (jl T o); reflexivity.
Qed.

Fixpoint lops_all (T : table) (P : program) (k : Z) : list (list lop) :=
  match P with [] => [] | r :: rest => lops T r k :: lops_all T rest (k + Z.of_nat (length r))%Z end.

Lemma loffs_app T r1 : forall r2 k O,
  loffs T (r1 ++ r2) k O = loffs T r2 (k + Z.of_nat (length r1))%Z (loffs T r1 k O).
Proof.
  induction r1 as [|o r1 IH]; intros r2 k O.
  - cbn [app loffs length Z.of_nat]. rewrite Z.add_0_r. reflexivity.
  - cbn [app loffs length]. rewrite IH, Nat2Z.inj_succ, <- Z.add_1_l, Z.add_assoc. reflexivity.
Qed.

Lemma listen_all_spec T P : forall k O,
  listen_all (map (fun r => flat_map (stm_of T) r) P) (mkL k [] O) =
  (lops_all T P k, mkL (k + Z.of_nat (length (concat P)))%Z [] (loffs T (concat P) k O)).
Proof.
  induction P as [|r P IH]; intros k O.
  - cbn [map listen_all lops_all concat length Z.of_nat loffs]. rewrite Z.add_0_r. reflexivity.
  - cbn [map listen_all lops_all concat]. rewrite listen_spec. rewrite IH.
    rewrite loffs_app. rewrite app_length, Nat2Z.inj_add, Z.add_assoc. reflexivity.
Qed.

Definition label_inj (T : table) : Prop :=
  forall z1 z2 l, tlookup z1 T = Some l -> tlookup z2 T = Some l -> z1 = z2.

Lemma loffs_other T l r : forall k O,
  (forall o, In o r -> tlookup (off o) T <> Some l) ->
  olookup l (loffs T r k O) = olookup l O.
Proof.
  induction r as [|o r IH]; intros k O H; [reflexivity|].
  cbn [loffs]. rewrite IH by (intros o' Hin; apply H; right; exact Hin).
  destruct (tlookup (off o) T) as [l'|] eqn:E; [|reflexivity].
  cbn [olookup]. destruct (Nat.eqb_spec l' l) as [->|_]; [|reflexivity].
  destruct (H o (or_introl eq_refl) E).
Qed.

Lemma pos_of_off_In z r : forall k p, pos_of_off z r k = Some p -> exists o, In o r /\ off o = z.
Proof.
  induction r as [|o r IH]; intros k p H; cbn [pos_of_off] in H; [discriminate|].
  destruct (Z.eqb_spec (off o) z) as [E|_].
  - exists o. split; [left; reflexivity | exact E].
  - destruct (IH _ _ H) as [o' [Hin Ho]]. exists o'. split; [right; exact Hin | exact Ho].
Qed.

Lemma loffs_lookup T : label_inj T -> forall r k O z l p,
  NoDup (map off r) -> tlookup z T = Some l -> pos_of_off z r k = Some p ->
  olookup l (loffs T r k O) = Some p.
Proof.
  intros Hinj r. induction r as [|o r IH]; intros k O z l p Hnd Hl Hp; cbn [pos_of_off] in Hp; [discriminate|].
  cbn [map] in Hnd. inversion Hnd as [|? ? Hnot Hnd']; subst.
  cbn [loffs]. destruct (Z.eqb_spec (off o) z) as [<-|_].
  - injection Hp as <-. rewrite Hl.
    rewrite loffs_other; [cbn [olookup]; rewrite Nat.eqb_refl; reflexivity|].
    (* no later op overwrites the entry for [l]: it would stand at the same offset *)
    intros o' Hin Ho'. apply Hnot. rewrite (Hinj _ _ _ Hl Ho'). apply in_map. exact Hin.
  - apply (IH _ _ z l p Hnd' Hl Hp).
Qed.

Lemma pos_of_off_exists z r : forall k, (exists o, In o r /\ off o = z) -> exists p, pos_of_off z r k = Some p.
Proof.
  induction r as [|o r IH]; intros k [o' [Hin Ho]]; [contradiction|].
  cbn [pos_of_off]. destruct (Z.eqb_spec (off o) z) as [_|E]; [eexists; reflexivity|].
  apply IH. destruct Hin as [->|Hin]; [contradiction|].
  exists o'. split; assumption.
Qed.

Definition op_wf (all : list op) (o : op) : Prop :=
  match jump_index (code o) with
  | None => True
  | Some idx => exists z, nth_error (params o) idx = Some (PInt z) /\ exists o', In o' all /\ off o' = z
  end.

Lemma renumber_op_tgt all o k :
  renumber_op all o k =
  mkOp k (code o) match tgt o with
                  | Some z => match pos_of_off z all 0 with
                              | Some p => params (strip_op o) ++ [PInt p]
                              | None => params o
                              end
                  | None => params o
                  end.
Proof.
  unfold renumber_op, tgt, strip_op. destruct (jump_index (code o)) as [idx|]; [|reflexivity].
  destruct (nth_error (params o) idx) as [[z| | | | |]|]; try reflexivity.
  destruct (pos_of_off z all 0); reflexivity.
Qed.

Lemma op_wf_tgt all o : op_wf all o ->
  match tgt o with Some z => exists o', In o' all /\ off o' = z | None => strip_op o = o end.
Proof.
  unfold op_wf, tgt, strip_op. destruct (jump_index (code o)); [|reflexivity].
  intros (z & -> & H). exact H.
Qed.

(* what [remove_labels] needs of an op printed under [T] when the listener's table is [O] *)
Definition labelled (T : table) (O : list (nat * Z)) (all : list op) (o : op) : Prop :=
  match tgt o with
  | Some z => exists l p, tlookup z T = Some l /\ olookup l O = Some p /\ pos_of_off z all 0 = Some p
  | None => strip_op o = o
  end.

Lemma remove_labels_cons T O all o k rest : labelled T O all o ->
  remove_labels O (lop_of T o k :: rest) = do out <- remove_labels O rest; Ok (renumber_op all o k :: out).
Proof.
  unfold labelled, lop_of, jl. rewrite renumber_op_tgt. destruct (tgt o) as [z|].
  - intros (l & p & -> & H2 & ->). cbn [remove_labels off code params]. rewrite H2. reflexivity.
  - intros ->. reflexivity.
Qed.

Lemma remove_labels_spec T O all r : forall k, Forall (labelled T O all) r ->
  remove_labels O (lops T r k) = Ok (renumber_routine all r k).
Proof.
  induction r as [|o r IH]; intros k H; [reflexivity|].
  cbn [lops renumber_routine]. rewrite (remove_labels_cons T O all _ _ _ (Forall_inv H)), (IH _ (Forall_inv_tail H)). reflexivity.
Qed.

Lemma remove_labels_all_spec T O all P : forall k, Forall (labelled T O all) (concat P) ->
  remove_labels_all O (lops_all T P k) = Ok (renumber_from all P k).
Proof.
  induction P as [|r P IH]; intros k H; [reflexivity|]. cbn [concat] in H. apply Forall_app in H. destruct H as [Hr HP].
  cbn [lops_all remove_labels_all renumber_from]. rewrite (remove_labels_spec _ _ _ _ _ Hr), (IH _ HP). reflexivity.
Qed.

(* which label numbers are printed does not matter *)
Theorem compile_printed T P :
  label_inj T -> NoDup (map off (all_ops P)) ->
  (forall o, In o (all_ops P) -> op_wf (all_ops P) o /\ knows T o) ->
  compile_script (map (fun r => flat_map (stm_of T) r) P) = Ok (renumber P).
Proof.
  intros Hinj Hnd H. unfold compile_script. rewrite listen_all_spec. cbn [l_offsets].
  apply remove_labels_all_spec, Forall_forall. intros o Hin. destruct (H o Hin) as [Hwf Hhas].
  apply op_wf_tgt in Hwf. unfold labelled. destruct (tgt o) as [z|] eqn:E; [|exact Hwf].
  destruct (Hhas z E) as [l Hl]. destruct (pos_of_off_exists z _ 0 Hwf) as [p Hp].
  exists l, p. split; [exact Hl|]. split; [exact (loffs_lookup T Hinj _ _ _ _ _ _ Hnd Hl Hp) | exact Hp].
Qed.

Lemma In_lt_next_id t : forall z l, In (z, l) t -> l < next_id t.
Proof.
  intros z l H. assert (Hle : l <= fold_right (fun kl m => Nat.max (snd kl) m) 0 t).
  { induction t as [|kl t IH]; [contradiction|]. cbn [fold_right]. destruct H as [->|H]; [apply Nat.le_max_l|].
    etransitivity; [apply IH, H | apply Nat.le_max_r]. }
  destruct t; [contradiction|]. apply Nat.lt_succ_r, Hle.
Qed.

Lemma tlookup_In z l : forall t, tlookup z t = Some l -> In (z, l) t.
Proof.
  induction t as [|[k v] t IH]; cbn [tlookup]; [discriminate|].
  destruct (Z.eqb_spec k z) as [->|_]; [intros [= ->]; left; reflexivity | right; auto].
Qed.

Lemma next_id_fresh t z : tlookup z t <> Some (next_id t).
Proof. intro H. apply tlookup_In, In_lt_next_id, Nat.lt_irrefl in H. exact H. Qed.

Lemma ext_op_label_inj t o : label_inj t -> label_inj (ext_op t o).
Proof.
  intro H. unfold ext_op. destruct (tgt o) as [z|]; [|exact H]. destruct (tlookup z t); [exact H|].
  intros z1 z2 l. cbn [tlookup].
  destruct (Z.eqb_spec z z1) as [<-|_], (Z.eqb_spec z z2) as [<-|_]; intros H1 H2;
    [reflexivity | | | apply (H _ _ _ H1 H2)].
  - injection H1 as <-. destruct (next_id_fresh _ _ H2).
  - injection H2 as <-. destruct (next_id_fresh _ _ H1).
Qed.

Lemma ext_ops_label_inj r : forall t, label_inj t -> label_inj (ext_ops t r).
Proof. apply (fold_left_inv label_inj). intros t o _. apply ext_op_label_inj. Qed.

Lemma label_inj_nil : label_inj [].
Proof. intros z1 z2 l H. discriminate H. Qed.

Lemma op_wf_ok all o : op_wf all o -> op_ok o.
Proof.
  unfold op_wf, op_ok. destruct (jump_index (code o)); [|trivial].
  intros [z [H _]]. exists z. exact H.
Qed.

Theorem script_roundtrip_prop (P : program) :
  NoDup (map off (all_ops P)) ->
  (forall o, In o (all_ops P) -> op_wf (all_ops P) o) ->
  exists rs, print_script P = Ok rs /\ compile_script rs = Ok (renumber P).
Proof.
  intros Hnd Hwf. exists (map (fun r => flat_map (stm_of (ext_all [] P)) r) P). split.
  - apply print_script_spec, Forall_forall. intros o Hin. apply (op_wf_ok (all_ops P)), Hwf, Hin.
  - rewrite ext_all_concat. apply compile_printed; [apply ext_ops_label_inj, label_inj_nil | exact Hnd|].
    intros o Hin. split; [apply Hwf, Hin | apply ext_ops_has, Hin].
Qed.

(* the arity that [op_wf_script] also fixes is needed only by [renumber_same_cfg] *)
Lemma op_wf_script_wf all o : op_wf_script all o = true -> op_wf all o.
Proof.
  unfold op_wf_script, op_wf. destruct (jump_index (code o)) as [idx|]; [|trivial].
  intro H. apply andb_prop in H as [_ H].
  destruct (nth_error (params o) idx) as [[z| | | | |]|]; try discriminate.
  exists z. split; [reflexivity|]. apply existsb_exists in H. destruct H as [o' [Hin E]].
  exists o'. split; [exact Hin | apply Z.eqb_eq; exact E].
Qed.

Theorem script_roundtrip (P : program) :
  NoDup (map off (all_ops P)) ->
  forallb (op_wf_script (all_ops P)) (all_ops P) = true ->
  exists rs, print_script P = Ok rs /\ compile_script rs = Ok (renumber P).
Proof.
  intros Hnd H. apply script_roundtrip_prop; [exact Hnd|].
  intros o Hin. apply op_wf_script_wf, (forallb_In _ _ _ H Hin).
Qed.

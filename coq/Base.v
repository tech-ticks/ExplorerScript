(* Common definitions: texts, decidable equalities, result monad; list facts the standard library lacks. Stdlib only. *)
From Coq Require Export String Ascii.
From Coq Require Export ZArith NArith Bool Arith Lia List.
Export ListNotations.
Open Scope list_scope.

(* Python str contents: list of Unicode code points. *)
Definition text := list N.

Fixpoint list_eqb {A} (eqb : A -> A -> bool) (l1 l2 : list A) : bool :=
  match l1, l2 with
  | [], [] => true
  | x :: r1, y :: r2 => eqb x y && list_eqb eqb r1 r2
  | _, _ => false
  end.

Lemma list_eqb_spec {A} (eqb : A -> A -> bool) :
  (forall x y, eqb x y = true <-> x = y) ->
  forall l1 l2, list_eqb eqb l1 l2 = true <-> l1 = l2.
Proof.
  intros H l1. induction l1 as [|x r IH]; intros [|y r2]; simpl; split; intro E;
    try reflexivity; try discriminate.
  - apply andb_prop in E as [E1 E2]. apply H in E1. apply IH in E2. congruence.
  - injection E as -> ->. apply andb_true_iff. split; [apply H; reflexivity | apply IH; reflexivity].
Qed.

Definition text_eqb : text -> text -> bool := list_eqb N.eqb.
Lemma text_eqb_spec : forall a b, text_eqb a b = true <-> a = b.
Proof. apply list_eqb_spec. apply N.eqb_eq. Qed.

Lemma text_eqb_false a b : a <> b -> text_eqb a b = false.
Proof. intro H. destruct (text_eqb a b) eqn:E; [apply text_eqb_spec in E; contradiction | reflexivity]. Qed.

Lemma existsb_eqb_In {A} (eqb : A -> A -> bool) : (forall x y, eqb x y = true <-> x = y) ->
  forall x l, existsb (eqb x) l = true <-> In x l.
Proof.
  intros H x l. rewrite existsb_exists. split.
  - intros (y & Hin & E). apply H in E. subst. exact Hin.
  - intro Hin. exists x. split; [exact Hin | apply H; reflexivity].
Qed.

Definition pair_eqb {A B} (ea : A -> A -> bool) (eb : B -> B -> bool) (p q : A * B) : bool :=
  ea (fst p) (fst q) && eb (snd p) (snd q).
Lemma pair_eqb_spec {A B} (ea : A -> A -> bool) (eb : B -> B -> bool) :
  (forall x y, ea x y = true <-> x = y) -> (forall x y, eb x y = true <-> x = y) ->
  forall p q, pair_eqb ea eb p q = true <-> p = q.
Proof.
  intros Ha Hb [a b] [c d]; unfold pair_eqb; simpl. rewrite andb_true_iff, Ha, Hb.
  split; [intros [? ?]; congruence | intros [= -> ->]; auto].
Qed.

(* string (ASCII names) -> text *)
Fixpoint s2t (s : string) : text :=
  match s with
  | EmptyString => []
  | String c r => N_of_ascii c :: s2t r
  end.

Inductive result (A : Type) : Type :=
| Ok (a : A)
| Err (msg : string).
Arguments Ok {A} a.
Arguments Err {A} msg.

Definition bind {A B} (r : result A) (f : A -> result B) : result B :=
  match r with Ok a => f a | Err m => Err m end.
Notation "'do' x <- r ; k" := (bind r (fun x => k)) (at level 200, x pattern, r at level 100, k at level 200).

Definition mem_string (s : string) (l : list string) : bool := existsb (String.eqb s) l.
Lemma mem_string_In s l : mem_string s l = true <-> In s l.
Proof. apply (existsb_eqb_In String.eqb String.eqb_eq). Qed.

Fixpoint assoc_string {A} (s : string) (l : list (string * A)) : option A :=
  match l with
  | [] => None
  | (k, v) :: r => if String.eqb s k then Some v else assoc_string s r
  end.

Lemma combine_app {A B} (a1 a2 : list A) (b1 b2 : list B) : length a1 = length b1 ->
  combine (a1 ++ a2) (b1 ++ b2) = combine a1 b1 ++ combine a2 b2.
Proof.
  revert b1. induction a1 as [|x a1 IH]; intros [|y b1] H; try discriminate; [reflexivity|].
  cbn [app combine]. rewrite IH by (injection H as H; exact H). reflexivity.
Qed.

Lemma nth_combine {A B} (l1 : list A) (l2 : list B) : forall a x y,
  nth_error (combine l1 l2) a = Some (x, y) -> nth_error l1 a = Some x /\ nth_error l2 a = Some y.
Proof.
  revert l2. induction l1 as [|u l1 IH]; intros [|v l2] [|a] x y H; try discriminate.
  - injection H as -> ->. split; reflexivity.
  - apply (IH _ _ _ _ H).
Qed.

Lemma nth_combine_repeat {A B} (X : list A) (y : B) n a e act :
  nth_error (combine X (repeat y n)) a = Some (e, act) -> act = y /\ nth_error X a = Some e.
Proof.
  intro H. destruct (nth_combine _ _ _ _ _ H) as [H1 H2]. split; [|exact H1]. apply (repeat_spec _ _ _ (nth_error_In _ _ H2)).
Qed.

Lemma map_fst_combine {A B} (l1 : list A) (l2 : list B) : length l1 = length l2 -> map fst (combine l1 l2) = l1.
Proof.
  revert l2. induction l1 as [|x l1 IH]; intros [|y l2] H; try discriminate; [reflexivity|].
  cbn [combine map fst]. rewrite IH by (injection H as H; exact H). reflexivity.
Qed.

Lemma forallb_In {A} (f : A -> bool) l x : forallb f l = true -> In x l -> f x = true.
Proof. intro H. exact (proj1 (forallb_forall f l) H x). Qed.

Lemma forallb_repeat {A} (P : A -> bool) x k : P x = true -> forallb P (repeat x k) = true.
Proof. intro H. induction k as [|k IH]; [reflexivity|]. cbn [repeat forallb]. rewrite H. exact IH. Qed.

Lemma flat_map_combine {A B C} (f : A -> list B) (g : A -> list C) l : (forall x, length (f x) = length (g x)) ->
  combine (flat_map f l) (flat_map g l) = flat_map (fun x => combine (f x) (g x)) l.
Proof. intro H. induction l as [|x l IH]; [reflexivity|]. cbn [flat_map]. rewrite combine_app, IH by apply H. reflexivity. Qed.

Lemma flat_map_length_concat {A B} (f : list A -> list B) l :
  (forall x, length (f x) = length x) -> length (flat_map f l) = length (concat l).
Proof. intro H. induction l as [|x l IH]; [reflexivity|]. cbn [flat_map concat]. rewrite !app_length, H, IH. reflexivity. Qed.

Lemma flat_map_nth {A B} (g : A -> list B) l : forall a c, nth_error (flat_map g l) a = Some c ->
  exists x j, In x l /\ nth_error (g x) j = Some c /\
              (S j < length (g x) -> nth_error (flat_map g l) (S a) = nth_error (g x) (S j)).
Proof.
  induction l as [|x l IH]; intros a c H; [destruct a; discriminate|]. cbn [flat_map] in *.
  destruct (Nat.lt_ge_cases a (length (g x))) as [Hlt|Hge].
  - rewrite nth_error_app1 in H by exact Hlt. exists x, a. split; [left; reflexivity|]. split; [exact H|].
    intro Hs. apply nth_error_app1, Hs.
  - rewrite nth_error_app2 in H by exact Hge. destruct (IH _ _ H) as (y & j & Hy & Hj & Hn).
    exists y, j. split; [right; exact Hy|]. split; [exact Hj|]. intro Hs.
    rewrite nth_error_app2 by lia. rewrite <- (Hn Hs). f_equal. lia.
Qed.

Lemma nth_error_app_last {A} (l : list A) x : nth_error (l ++ [x]) (length l) = Some x.
Proof. induction l as [|y l IH]; cbn [length app nth_error]; [reflexivity | exact IH]. Qed.

Lemma skipn_nth {A} (l : list A) : forall a x, nth_error l a = Some x -> skipn a l = x :: skipn (S a) l.
Proof.
  induction l as [|z l IH]; intros [|a] x H; try discriminate; [injection H as ->; reflexivity | apply (IH _ _ H)].
Qed.

(* [nodup_nat], [nodup_z] and [nodup_zb] (inside the extracted checks) are this function, written out for one equality
   test each; they convert to it. *)
Definition nodupb {A} (eqb : A -> A -> bool) : list A -> bool :=
  fix go l := match l with [] => true | x :: r => negb (existsb (eqb x) r) && go r end.

Lemma nodupb_sound {A} (eqb : A -> A -> bool) : (forall x, eqb x x = true) ->
  forall l, nodupb eqb l = true -> NoDup l.
Proof.
  intros Hrefl. induction l as [|x r IH]; intro H; [constructor|].
  apply andb_prop in H as [H1 H2]. constructor; [|apply IH, H2].
  intro Hin. rewrite (proj2 (existsb_exists _ _)) in H1; [discriminate | exists x; auto].
Qed.

Lemma NoDup_app_inv {A} (a b : list A) : NoDup (a ++ b) -> NoDup b /\ forall x, In x a -> ~ In x b.
Proof.
  induction a as [|y a IH]; [auto|]. cbn [app]. intro H. inversion H as [|? ? Hy Ha]; subst. destruct (IH Ha) as [Hb Hd].
  split; [exact Hb|]. intros x [->|Hx] Hin; [apply Hy, in_or_app; right; exact Hin | apply (Hd x Hx Hin)].
Qed.

Lemma NoDup_map_inj_on {A B} (f : A -> B) : forall l,
  (forall a b, In a l -> In b l -> f a = f b -> a = b) -> NoDup l -> NoDup (map f l).
Proof.
  induction l as [|x l IH]; intros Hinj Hnd; [constructor|].
  inversion Hnd as [|? ? Hx Hl]. cbn [map]. constructor.
  - intros Hin. apply in_map_iff in Hin. destruct Hin as (y & Ey & Hy).
    assert (y = x) by (apply Hinj; [right; exact Hy | left; reflexivity | exact Ey]). subst. contradiction.
  - apply IH; [|exact Hl]. intros a b Ha Hb. apply Hinj; right; assumption.
Qed.

Lemma Forall2_length {A B} (R : A -> B -> Prop) a b : Forall2 R a b -> length a = length b.
Proof. induction 1; cbn; congruence. Qed.

Lemma Forall2_concat {A B} (R : A -> B -> Prop) a b : Forall2 (Forall2 R) a b -> Forall2 R (concat a) (concat b).
Proof. induction 1; cbn [concat]; [constructor | apply Forall2_app; assumption]. Qed.

Lemma Forall2_map_r {A B} (R : A -> B -> Prop) f l : (forall x, In x l -> R x (f x)) -> Forall2 R l (map f l).
Proof.
  induction l as [|x l IH]; intros H; constructor; [apply H; left; reflexivity|].
  apply IH. intros y Hy. apply H. right. exact Hy.
Qed.

Lemma fold_left_inv {A B} (I : A -> Prop) (f : A -> B -> A) l :
  (forall a b, In b l -> I a -> I (f a b)) -> forall a, I a -> I (fold_left f l a).
Proof.
  induction l as [|b l IH]; intros H a Ha; [exact Ha|].
  apply IH; [intros a' b' Hb; apply H; right; exact Hb | apply H; [left; reflexivity | exact Ha]].
Qed.

Lemma assoc_string_In {A} s (l : list (string * A)) v : assoc_string s l = Some v -> In (s, v) l.
Proof.
  induction l as [|[k w] l IH]; cbn [assoc_string]; [discriminate|].
  destruct (String.eqb_spec s k) as [->|_]; [intros [= ->]; left; reflexivity | right; auto].
Qed.

